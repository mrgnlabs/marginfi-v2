(* C19 — Fees and emissions reach only their destinations, in exactly accrued amounts.
   Handler model: coq/model/Handlers.v (h_collect_fees), coq/model/Bank.v (claim_emissions,
   settle_emissions), coq/model/Payout.v (the fee / insurance / emissions payout instructions).
   Which signer passes the account constraints of the instructions that draw down the fee / insurance
   vaults is C08 (withdraw_fees, withdraw_fees_permissionless, withdraw_insurance). *)
Require Import Base Constants Fixed Curve Bank BankOps Risk TransferFee Handlers BankLemmas HandlerLemmas TransferFeeLemmas.
Require Import Panic AnchorTypes AnchorSem Gate AccountsTable HandlerFacts Spec AnchorSemLemmas AuthLemmas.
Require Import Payout PayoutLemmas.
Local Open Scope Z_scope.

(* collecting bank fees: each bucket (insurance, group, program — in that order) gives up exactly the
   whole-token part of min(bucket, liquidity still available), the liquidity vault falls by the sum,
   the three destinations (insurance vault, fee vault, global fee wallet ATA) receive exactly those
   amounts (minus the token program's transfer fee on fee-bearing mints), totals and share values are
   untouched *)
Theorem C19_collect_fees_exact :
  forall w b w' hb, nth_bank w b = Ok hb -> h_collect_fees w b = Ok w' ->
  exists hb', nth_bank w' b = Ok hb' /\
  let bk := hb_b hb in let bk' := hb_b hb' in
  let avail0 := of_int (hb_vault hb) in
  let mi := fint (fmin (b_ins bk) avail0) in
  let mg := fint (fmin (b_grp bk) (avail0 - mi)) in
  let mp := fint (fmin (b_prog bk) (avail0 - mi - mg)) in
  b_ins bk' = b_ins bk - mi /\ b_grp bk' = b_grp bk - mg /\ b_prog bk' = b_prog bk - mp /\
  hb_vault hb' * ONE = hb_vault hb * ONE - (mi + mg + mp) /\
  (exists fi fg fp, tfee hb (mi / ONE) = Ok fi /\ tfee hb (mg / ONE) = Ok fg /\ tfee hb (mp / ONE) = Ok fp /\
     hb_insv hb' = hb_insv hb + mi / ONE - fi /\
     hb_feev hb' = hb_feev hb + mg / ONE - fg /\
     hb_feeata hb' = hb_feeata hb + mp / ONE - fp) /\
  b_tas bk' = b_tas bk /\ b_tls bk' = b_tls bk /\ b_asv bk' = b_asv bk /\ b_lsv bk' = b_lsv bk.
Proof. exact collect_fees_inv. Qed.

(* emissions: what a position is credited is taken out of the bank's funded remaining amount,
   exactly, and never exceeds it *)
Theorem C19_emissions_conserved_and_capped :
  forall b bl now b' bl', claim_emissions b bl now = Ok (b', bl') ->
  b_em_rem b' + bl_em bl' = b_em_rem b + bl_em bl /\
  bl_em bl' - bl_em bl <= Z.max 0 (b_em_rem b) /\
  (0 <= b_em_rem b -> 0 <= b_em_rem b' \/ bl_em bl' <= bl_em bl).
Proof. exact claim_emissions_conserves. Qed.

(* settling pays out the whole-token part of the position's outstanding emissions and keeps the fraction *)
Theorem C19_settle_pays_whole_tokens :
  forall b bl now b' bl' n, settle_emissions b bl now = Ok (b', bl', n) ->
  exists b1 bl1, claim_emissions b bl now = Ok (b1, bl1) /\ b' = b1 /\
  n * ONE + bl_em bl' = bl_em bl1 /\ 0 <= bl_em bl' < ONE /\ 0 <= n <= U64_MAX.
Proof. exact settle_emissions_exact. Qed.

(* 'only to the account authority's chosen destination', over the GENERATED accounts table (regenerated from the source on
   every run): lending_account_withdraw_emissions passes account validation only under the user signer rule with
   allow_receivership = FALSE (the authority; the group admin only on a frozen account; never 'anyone while the account
   is in receivership'), and the destination of permissionless payouts can be set only by the authority itself *)
Theorem C19_emissions_withdrawn_only_by_authority :
  forall pda opq e, In e accounts_table -> e_ix e = "lending_account_withdraw_emissions"%string ->
  forall w b sg, accepts pda opq e w b sg = true ->
  user_rule w b sg false "marginfi_account" "authority" "group".
Proof. exact emission_withdraw_signer. Qed.

Theorem C19_emissions_destination_set_only_by_authority :
  forall pda opq e, In e accounts_table -> e_ix e = "marginfi_account_update_emissions_destination_account"%string ->
  forall w b sg, accepts pda opq e w b sg = true ->
  owner_rule w b sg "marginfi_account" "authority".
Proof. exact emission_destination_owner. Qed.

Definition ex_hb : hbank :=
  mkHB (mkBank ONE ONE (100 * ONE) 0 (5 * ONE / 2) (7 * ONE) (ONE / 3) 0 U64_MAX U64_MAX 0 6 0 0 0 0 0 1 (mkIR 0 0 0 0 0 0 0 0 0 [] 1))
       (mkRC ONE ONE ONE ONE 0 0 0 []) (fixed_feed ONE) 6 0 0 0 false 0 0 0.
(* Funding: lending_pool_setup_emissions(total) and lending_pool_update_emissions_parameters(additional) record `amount`
   as funded emissions; the emissions vault receives AT LEAST that amount (Token-2022 transfer fee, pending fee change and
   any epoch included), so what positions can be credited (<= the recorded remaining amount, C19_emissions_conserved_and_capped)
   is covered by tokens in the vault *)
Theorem C19_emissions_funding_covers_recorded : forall has_fee s epoch balance amount sent recv,
  0 <= fs_old_bps s <= 10000 -> 0 <= fs_new_bps s <= 10000 -> 0 <= fs_old_max s -> 0 <= fs_new_max s ->
  0 <= amount ->
  fund_emissions has_fee s epoch balance amount = Ok (sent, recv) ->
  amount <= recv /\ recv <= sent /\ sent <= balance.
Proof. exact fund_emissions_covers. Qed.

Example C19_funding_nonvacuous :
  fund_emissions true (mkFS 100 5 500 U64_MAX 7) 7 U64_MAX 1000000000 = Ok (1052631579, 1000000000) /\
  fund_emissions true (mkFS 100 5 500 U64_MAX 7) 6 U64_MAX 1000000000 = Ok (1000000005, 1000000000).
Proof. vm_compute. split; reflexivity. Qed.

Example C19_nonvacuous :
  match h_collect_fees (mkHW [ex_hb] [] 0 (mkPF false 0 0) [] false) 0 with
  | Ok w' => map (fun hb => (hb_vault hb, hb_insv hb, hb_feev hb, hb_feeata hb, b_ins (hb_b hb) / (ONE / 2))) (hw_banks w')
  | Err _ => [] end = [(0, 2, 4, 0, 1)].
Proof. vm_compute. reflexivity. Qed.

(* Instruction level (model/Payout.v: the four fee / insurance instructions and the four emissions instructions, with
   their account constraints and token transfers).  'apart from bankruptcy cover, fee and insurance vaults can be drawn
   down only by the group admin or, for fees, by anyone into the destination the admin fixed' *)
Theorem C19_fee_vault_drawn_only_by_admin_or_to_fixed_destination : forall w signer op w',
  pay_step w signer op = Ok w' -> y_fee_vault w' < y_fee_vault w ->
  exists dst paid t, paid = y_fee_vault w - y_fee_vault w' /\ find_tok (y_toks w) dst = Some t /\ tk_mint t = MINT_BANK /\
    y_toks w' = credit (y_toks w) dst paid /\
    ((signer = y_admin w /\ exists a, op = YWithdrawFees dst a) \/
     (dst = y_fee_dest w /\ exists a, op = YWithdrawFeesPermissionless dst a)).
Proof.
  intros w signer op w' H Hlt. apply pay_step_done in H. destruct H; ysimpl; try lia.
  - exists d, a, t. repeat split; [lia | assumption..| eauto].
  - exists d, amt, t. repeat split; [lia | assumption..| eauto].
Qed.

Theorem C19_insurance_vault_drawn_only_by_admin : forall w signer op w',
  pay_step w signer op = Ok w' -> y_ins_vault w' < y_ins_vault w ->
  signer = y_admin w /\ exists dst a t, op = YWithdrawInsurance dst a /\ a = y_ins_vault w - y_ins_vault w' /\
    find_tok (y_toks w) dst = Some t /\ y_toks w' = credit (y_toks w) dst a.
Proof.
  intros w signer op w' H Hlt. apply pay_step_done in H. destruct H; ysimpl; try lia.
  split; [assumption|]. exists d, a, t. repeat split; [lia | assumption].
Qed.

(* the fixed fee destination is changed only by the group admin (to a token account of the bank's mint); the wallet for
   permissionless emission payouts only by the account authority, on an account that is neither disabled nor frozen *)
Theorem C19_destinations_changed_only_by_their_owner : forall w signer op w',
  pay_step w signer op = Ok w' ->
  (y_fee_dest w' <> y_fee_dest w -> signer = y_admin w /\ op = YUpdateFeesDest (y_fee_dest w') /\
     exists t, find_tok (y_toks w) (y_fee_dest w') = Some t /\ tk_mint t = MINT_BANK) /\
  (y_em_wallet w' <> y_em_wallet w -> signer = y_auth w /\ op = YUpdateEmissionsDest (y_em_wallet w') /\
     aflag w ACCOUNT_DISABLED = false /\ aflag w ACCOUNT_FROZEN = false).
Proof.
  intros w signer op w' H. apply pay_step_done in H. destruct H; ysimpl; split; intros C; try contradiction; eauto.
Qed.

(* 'emission rewards ... can be paid only to the account authority's chosen destination': the emissions vault pays the
   whole-token part of the position's credit, all of it into ONE token account: the one an authorized signer names (the
   authority; the group admin only while the account is frozen), or - triggered by anybody - the associated token account
   of the wallet the authority registered (never the unset default); never for a disabled account *)
Theorem C19_emissions_paid_only_to_chosen_destination : forall w signer op w',
  pay_step w signer op = Ok w' -> y_em_vault w' < y_em_vault w ->
  exists dst n t, n = y_em_vault w - y_em_vault w' /\ find_tok (y_toks w) dst = Some t /\ tk_mint t = MINT_EM /\
    y_toks w' = credit (y_toks w) dst n /\
    aflag w ACCOUNT_DISABLED = false /\
    settle_emissions (y_bank w) (y_bal w) (y_now w) = Ok (y_bank w', y_bal w', n) /\
    ((op = YWithdrawEmissions dst /\ authorized w signer = true) \/
     (op = YWithdrawEmissionsPermissionless dst /\ y_em_wallet w <> 0 /\ dst = ata (y_em_wallet w) /\ aflag w ACCOUNT_FROZEN = false)).
Proof.
  intros w signer op w' H Hlt. apply pay_step_done in H. destruct H; ysimpl; try lia.
  exists d, n, t. repeat split; [lia | assumption..].
Qed.

(* every reachable state (any history of these instructions by any signers, failed instructions rolled back): token
   accounts keep distinct keys, no vault goes negative, the EMISSIONS VAULT COVERS the funded remaining amount plus the
   position's unpaid credit ('emissions vault vs remaining + sum of outstanding'), and per mint no token is created or
   destroyed (vaults + token accounts are constant) *)
Theorem C19_payout_histories_keep_vaults_covered : forall ops w, pay_inv w ->
  pay_inv (pay_run w ops) /\ supply_bank (pay_run w ops) = supply_bank w /\ supply_em (pay_run w ops) = supply_em w /\
  y_admin (pay_run w ops) = y_admin w /\ y_auth (pay_run w ops) = y_auth w.
Proof. exact pay_run_inv. Qed.

Definition ex_payw : payw :=
  mkPayW 1 2 0 0 0 50 60 1000
    [mkTok 10 MINT_BANK 0; mkTok 11 MINT_BANK 0; mkTok 1001 MINT_EM 0; mkTok 20 MINT_EM 0]
    (mkBank ONE ONE (1000000000 * ONE) 0 0 0 0 1700000000 U64_MAX U64_MAX 0 6 2 1000000 (1000 * ONE) 1 0 1 (mkIR 0 0 0 0 0 0 0 0 0 [] 1))
    (mkBal true 1 0 (1000000000 * ONE) 0 0 1700000000) 1700000000 1700000000.
(* a year passes; a stranger cannot take fees, the admin fixes a destination, then anybody can flush the fee vault into it;
   the authority registers wallet 1 and anybody pays the accrued emissions into that wallet's token account *)
Example C19_payout_nonvacuous :
  let w := pay_run ex_payw [(0, YTick 31536000); (3, YWithdrawFees 11 5); (1, YUpdateFeesDest 10); (3, YWithdrawFeesPermissionless 10 70);
                            (3, YWithdrawEmissionsPermissionless 1001); (2, YUpdateEmissionsDest 1); (3, YWithdrawEmissionsPermissionless 1001);
                            (3, YWithdrawEmissions 20); (1, YWithdrawInsurance 11 60)] in
  (y_fee_vault w, y_ins_vault w, y_em_vault w, map tk_amt (y_toks w)) = (0, 0, 0, [50; 60; 1000; 0]).
Proof. vm_compute. reflexivity. Qed.
Example C19_payout_inv_nonvacuous : pay_inv ex_payw.
Proof.
  repeat split; try (cbn [ex_payw y_fee_vault y_ins_vault y_em_vault]; lia).
  - cbn [ex_payw y_toks map tk_key]. repeat constructor; cbn [In]; intuition lia.
  - unfold em_covered. cbn [ex_payw y_em_vault y_bank y_bal b_em_rem bl_em]. lia.
Qed.

Print Assumptions C19_collect_fees_exact.
Print Assumptions C19_emissions_conserved_and_capped.
Print Assumptions C19_settle_pays_whole_tokens.
Print Assumptions C19_emissions_withdrawn_only_by_authority.
Print Assumptions C19_emissions_destination_set_only_by_authority.
Print Assumptions C19_emissions_funding_covers_recorded.
Print Assumptions C19_fee_vault_drawn_only_by_admin_or_to_fixed_destination.
Print Assumptions C19_insurance_vault_drawn_only_by_admin.
Print Assumptions C19_destinations_changed_only_by_their_owner.
Print Assumptions C19_emissions_paid_only_to_chosen_destination.
Print Assumptions C19_payout_histories_keep_vaults_covered.
