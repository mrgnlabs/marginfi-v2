(* C15 — Emergency pause is bounded: users always regain access within a fixed time.
   Quantification: every finite sequence of pause / admin-unpause / permissionless-unpause / propagate /
   time-passage operations from the zero-initialised fee state, any start time, clock in [0, 2^62). *)
Require Import Base Constants Panic PanicLemmas.
Local Open Scope Z_scope.

(* (a) each successful pause pushes the time until which the protocol is paused forward by at
       most 30 minutes; unpause / propagate never push it forward *)
Theorem C15_pause_extends_at_most_30min :
  forall now0 ops, 0 <= now0 -> let g := reach now0 ops in NOW g < 2^62 ->
  forall p', ix_panic_pause (P g) (NOW g) = Ok p' ->
  paused_until p' (NOW g) <= paused_until (P g) (NOW g) + 1800.
Proof.
  intros now0 ops H0 g Hlt. destruct (reach_inv now0 ops H0 Hlt) as [Hn Hp _ _ _ _].
  exact (fun p' => pause_extends_le_1800 _ _ p' Hp (conj Hn Hlt)).
Qed.

Theorem C15_other_ops_never_extend :
  forall now0 ops o, 0 <= now0 -> let g := reach now0 ops in NOW g < 2^62 ->
  match o with OpPause | OpTick _ => True | _ =>
    paused_until (w_p (fst (pstep (g_w g) o))) (NOW g) <= paused_until (P g) (NOW g) end.
Proof.
  intros now0 ops o H0 g Hlt. destruct (reach_inv now0 ops H0 Hlt) as [Hn Hp _ _ _ _].
  exact (nonpause_never_extends (g_w g) o Hp (conj Hn Hlt)).
Qed.

(* (b) never scheduled to remain paused more than 60 minutes beyond the present, and
       `paused_until` is exactly the moment from which users are no longer blocked *)
Theorem C15_horizon_60min :
  forall now0 ops, 0 <= now0 -> let g := reach now0 ops in NOW g < 2^62 ->
  paused_until (P g) (NOW g) <= NOW g + 3600.
Proof. intros now0 ops H0 g Hlt. exact (horizon_3600 _ _ (i_p _ (reach_inv now0 ops H0 Hlt))). Qed.

Theorem C15_blocked_iff_before_paused_until :
  forall now0 ops t, 0 <= now0 -> let g := reach now0 ops in NOW g < 2^62 -> NOW g <= t < 2^62 ->
  blocked (P g) t = Ok (negb (p_flags (P g) =? 0) && (t <? paused_until (P g) (NOW g))).
Proof.
  intros now0 ops t H0 g Hlt Ht. destruct (reach_inv now0 ops H0 Hlt) as [Hn Hp _ _ _ _].
  exact (blocked_iff _ _ t Hp Ht Hn).
Qed.

(* (c) at most three pauses succeed between two daily counter resets, which are >= 24 h apart *)
Theorem C15_daily_limit :
  forall now0 ops, 0 <= now0 -> let g := reach now0 ops in NOW g < 2^62 ->
  g_since g <= 3 /\ spaced_by 86400 (g_resets g).
Proof. intros now0 ops H0 g Hlt. exact (daily_limit g (reach_inv now0 ops H0 Hlt)). Qed.

(* (d) a pause that has run out stops blocking immediately, with nobody acting: for the cached copy
       held by any group (whatever its propagation history), 30 minutes after the cached start the
       group is open again, and that moment is at most 60 minutes away *)
Theorem C15_expired_pause_does_not_block :
  forall now0 ops t, 0 <= now0 -> let g := reach now0 ops in NOW g < 2^62 ->
  c_start (w_c (g_w g)) + 1800 <= t -> t < 2^62 ->
  is_protocol_paused (w_c (g_w g)) t = Ok false.
Proof. intros now0 ops t H0 g Hlt H1 H2. exact (expired_cache_not_paused g t (reach_inv now0 ops H0 Hlt) H1 H2). Qed.

Theorem C15_cache_open_within_60min :
  forall now0 ops, 0 <= now0 -> let g := reach now0 ops in NOW g + 3600 < 2^62 ->
  is_protocol_paused (w_c (g_w g)) (NOW g + 3600) = Ok false.
Proof.
  intros now0 ops H0 g Hlt. pose proof (now_mono_run ops (g_init now0)) as Hm. fold (reach now0 ops) in Hm. fold g in Hm.
  assert (Hi : PInv g) by (apply reach_inv; [assumption | change (NOW (g_init now0)) with now0 in Hm; fold g; lia]).
  apply expired_cache_not_paused; [assumption | | assumption]. destruct Hi as [_ _ _ _ _ [_ ?]]. lia.
Qed.

(* (e) anyone may clear an expired pause; (f) admin unpause never fails while the flag is set *)
Theorem C15_permissionless_unpause_iff_expired :
  forall now0 ops, 0 <= now0 -> let g := reach now0 ops in NOW g < 2^62 ->
  (is_ok (ix_panic_unpause_permissionless (P g) (NOW g)) = true <->
   p_flags (P g) = 1 /\ p_start (P g) + 1800 <= NOW g).
Proof.
  intros now0 ops H0 g Hlt. subst g. destruct (reach_inv now0 ops H0 Hlt) as [Hn Hp _ _ _ _].
  rewrite (perm_unpause_spec _ _ Hp (conj Hn Hlt)).
  destruct (p_flags _ =? 1) eqn:F; [destruct (_ <=? _) eqn:X|]; cbn [is_ok]; split; try discriminate; try tauto; lia.
Qed.

Theorem C15_admin_unpause_total :
  forall now0 ops, 0 <= now0 -> let g := reach now0 ops in NOW g < 2^62 ->
  p_flags (P g) = 1 ->
  exists p', ix_panic_unpause (P g) (NOW g) = Ok p' /\ p_flags p' = 0.
Proof.
  intros now0 ops H0 g Hlt Hf. subst g. destruct (reach_inv now0 ops H0 Hlt) as [Hn Hp _ _ _ _].
  rewrite (unpause_spec _ _ Hp (conj Hn Hlt)), Hf. eexists; split; reflexivity.
Qed.

(* Non-vacuity: a reachable state that is paused, extended to the maximum, with 3 daily pauses. *)
Example C15_nonvacuous :
  let g := reach 1000 [OpPause; OpTick 100; OpPause; OpTick 3500; OpPause; OpPropagate] in
  p_flags (P g) = 1 /\ p_daily (P g) = 3 /\ g_since g = 3 /\ NOW g = 4600 /\
  is_protocol_paused (w_c (g_w g)) (NOW g) = Ok true /\
  is_ok (ix_panic_pause (P g) (NOW g)) = false /\
  (let g2 := reach 1000 [OpPause; OpTick 100; OpPause] in paused_until (P g2) (NOW g2) = NOW g2 + 3500).
Proof. vm_compute. repeat split; reflexivity. Qed.

Print Assumptions C15_pause_extends_at_most_30min.
Print Assumptions C15_other_ops_never_extend.
Print Assumptions C15_horizon_60min.
Print Assumptions C15_blocked_iff_before_paused_until.
Print Assumptions C15_daily_limit.
Print Assumptions C15_expired_pause_does_not_block.
Print Assumptions C15_cache_open_within_60min.
Print Assumptions C15_permissionless_unpause_iff_expired.
Print Assumptions C15_admin_unpause_total.
