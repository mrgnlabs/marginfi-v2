(* C03 — No free value: no operation or round trip pays out more than it debits.
   Model: the BankAccountWrapper primitives of coq/model/Bank.v (the code every deposit / withdraw /
   borrow / repay / liquidation leg goes through). Quantification: all banks with share values
   asv >= 0, lsv > 0 (any totals, limits, flags), all balances with non-negative shares, all
   amounts >= 0, all clocks; sequences of any length. pval/uval = exact net position value
   a_shares*asv - l_shares*lsv (scale 2^96); ONE = 2^48. *)
Require Import Base Constants Fixed Curve Bank BankOps TransferFee FixedLemmas BankLemmas ValueLemmas TransferFeeLemmas.
Local Open Scope Z_scope.

(* deposit / repay (any increase type): the position is credited at most the amount paid in *)
Theorem C03_increase_credits_at_most_paid :
  forall b bl now delta t b' bl', wf_sv b -> wf_bal bl -> 0 <= delta ->
  increase_balance b bl now delta t = Ok (b', bl') ->
  pval b' bl' - pval b bl <= delta * ONE /\ wf_bal bl' /\ 0 <= pval b' bl' - pval b bl.
Proof. exact increase_value. Qed.

(* withdraw / borrow (any decrease type): the position is debited at least the amount paid out,
   up to one ulp of each share value *)
Theorem C03_decrease_debits_at_least_paid :
  forall b bl now delta t b' bl', wf_sv b -> wf_bal bl -> 0 <= delta ->
  decrease_balance b bl now delta t = Ok (b', bl') ->
  delta * ONE - b_asv b - b_lsv b < pval b bl - pval b' bl' /\ wf_bal bl'.
Proof. exact decrease_value. Qed.

(* full withdrawal rounds DOWN: whole tokens paid <= exact asset value; the fraction (< 1 token)
   is booked to the bank's outstanding insurance fees; only liability dust < 0.0001 is forgiven *)
Theorem C03_withdraw_all_rounds_down :
  forall b bl now b' bl' n, wf_sv b -> wf_bal bl -> withdraw_all b bl now = Ok (b', bl', n) ->
  n * ONE * ONE <= bl_a bl * b_asv b /\
  n * ONE + (b_ins b' - b_ins b) = bl_a bl * b_asv b / ONE /\ 0 <= b_ins b' - b_ins b < ONE /\
  bl_l bl * b_lsv b < ZERO_AMOUNT_THRESHOLD * ONE /\ bl' = bal_empty.
Proof. exact withdraw_all_value. Qed.

(* full repayment rounds UP: whole tokens charged cover the debt, excess booked to insurance fees *)
Theorem C03_repay_all_rounds_up :
  forall b bl now b' bl' n, wf_sv b -> wf_bal bl -> repay_all b bl now = Ok (b', bl', n) ->
  bl_l bl * b_lsv b - ONE < n * ONE * ONE /\
  n * ONE = bl_l bl * b_lsv b / ONE + (b_ins b' - b_ins b) /\ 0 <= b_ins b' - b_ins b < ONE /\ bl' = bal_empty.
Proof. exact repay_all_value. Qed.

(* any sequence of deposits, withdrawals, borrows, repayments, full withdrawals and full repayments
   by one user at unchanged share values (other users may change everything else in between):
   tokens gained + change in net position value <= sum of the per-operation rounding allowances
   (0 for deposit/repay; asv+lsv ulps for withdraw/borrow; < 0.0001 token of forgiven liability
   dust per full withdrawal; one ulp of a token per full repayment) *)
Theorem C03_no_profitable_round_trip :
  forall asv lsv l bl tok bl' tok', 0 <= asv -> 0 < lsv -> wf_bal bl ->
  Forall (fun x => b_asv (snd (fst x)) = asv /\ b_lsv (snd (fst x)) = lsv /\ uop_amount_ok (fst (fst x))) l ->
  urun bl tok l = Ok (bl', tok') ->
  (tok' - tok) * ONE * ONE + (uval asv lsv bl' - uval asv lsv bl) <= uslack_sum asv lsv l.
Proof.
  intros asv lsv l. induction l as [|[[o b] now] r IH]; intros bl tok bl' tok' Hasv Hlsv Hbl Hall H; cbn [urun uslack_sum] in *.
  - apply pair_ok in H as [<- <-]. lia.
  - apply Forall_cons_iff in Hall as [(Ea & El & Hamt) Hall']. cbn [fst snd] in *.
    apply bind_ok in H as ([bl1 t] & H1 & H).
    pose proof (ustep_value _ _ _ _ _ _ _ _ Ea El Hasv Hlsv Hbl Hamt H1) as [V1 V2].
    specialize (IH _ _ _ _ Hasv Hlsv V2 Hall' H). lia.
Qed.

(* Token-2022 transfer-fee mints: the amount pulled from the depositor (pre-fee) minus the fee the
   token program keeps is at least the amount booked (post-fee), for every fee setting *)
Theorem C03_prefee_covers :
  forall bps maxfee post pre fee, 0 <= bps <= 10000 -> 0 <= maxfee -> 0 <= post -> 0 <= pre ->
  calculate_pre_fee_amount bps maxfee post = Ok pre -> calculate_fee bps maxfee pre = Ok fee ->
  post <= pre - fee /\ 0 <= fee.
Proof. exact prefee_covers. Qed.

(* ... and with a pending fee change (two schedules) in EVERY epoch: marginfi grosses up with the schedule the token
   program charges in that epoch, so the vault still receives at least the booked amount *)
Theorem C03_prefee_covers_in_every_epoch :
  forall s epoch post pre fee,
  0 <= fs_old_bps s <= 10000 -> 0 <= fs_new_bps s <= 10000 -> 0 <= fs_old_max s -> 0 <= fs_new_max s ->
  0 <= post -> 0 <= pre ->
  pre_fee_deposit_amount_at s epoch post = Ok pre -> calculate_epoch_fee s epoch pre = Ok fee ->
  post <= pre - fee /\ 0 <= fee.
Proof. exact prefee_covers_every_epoch. Qed.

(* Non-vacuity: deposit 1000 at share value 1.5 then withdraw 999 succeeds and loses value *)
Definition ex_bank : bank :=
  mkBank (3 * ONE / 2) (2 * ONE) 0 0 0 0 0 0 U64_MAX U64_MAX 0 6 0 0 0 0 0 1
         (mkIR 0 0 0 0 0 0 0 0 0 [] 1).
Example C03_nonvacuous :
  exists bl t, urun bal_empty 0 [(UDeposit 1000, ex_bank, 5); (UWithdraw 999, set_b_tas (1000 * ONE) ex_bank, 6)] = Ok (bl, t)
               /\ t = -1 /\ 0 < bl_a bl.
Proof. vm_compute. eexists; eexists; split; [reflexivity|]. split; reflexivity. Qed.

Print Assumptions C03_increase_credits_at_most_paid.
Print Assumptions C03_decrease_debits_at_least_paid.
Print Assumptions C03_withdraw_all_rounds_down.
Print Assumptions C03_repay_all_rounds_up.
Print Assumptions C03_no_profitable_round_trip.
Print Assumptions C03_prefee_covers.
Print Assumptions C03_prefee_covers_in_every_epoch.
