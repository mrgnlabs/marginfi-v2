(* C11 — Flash loans are bracketed: health is enforced before the transaction ends.
   Statements; each follows in a few lines from lemmas/TxLemmas.v and lemmas/TxWorldLemmas.v.
   Quantification: transactions of ANY length over arbitrary programs / instructions (including
   instructions that invoke marginfi by CPI), any end_index argument, any marginfi state; valuation
   and bookkeeping are arbitrary (`R : env BW PF`).
   `ouc w k` is a ghost bit: a risk-increasing action on k (borrow, withdraw, acting as classic
   liquidator) ran with its initial-margin check skipped because of IN_FLASHLOAN and no
   initial-margin check on k has passed since. *)
Require Import Base Fixed Constants TxConstants Tx TxSpec TxToy TxLemmas TxWorldLemmas.
Local Open Scope Z_scope.

(* (1) exactly when check_flashloan_can_start accepts *)
Theorem C11_start_checks : forall fl key ixes cur end_idx cpi,
  check_flashloan_can_start fl key ixes cur end_idx cpi = Ok tt <->
  (exists c, nth_z ixes cur = Some c /\ d_prog c = PMfi) /\
  cur < end_idx /\ cpi = false /\
  (exists e, nth_z ixes end_idx = Some e /\ is_endfl_for key e) /\
  f_disabled fl = false /\ f_fl fl = false /\ f_recv fl = false /\ f_frozen fl = false.
Proof. exact check_flashloan_can_start_spec. Qed.

Theorem C11_start : forall (BW PF : Type) ixes cur cpi (w : world BW PF) a auth e w',
  h_start_fl ixes cur cpi w a auth e = Ok w' ->
  exists A, w_accts w a = Some A /\ a_auth A = auth /\
    check_flashloan_can_start (a_fl A) a ixes cur e cpi = Ok tt /\ ofl w' a = true.
Proof.
  intros BW PF ixes cur cpi w a auth e w' H. apply h_start_fl_ok in H as (-> & A & EA & Ea & _ & V & ->).
  exists A. unfold ofl. cbn. rewrite Z.eqb_refl. auto.
Qed.

(* (2) no committed transaction leaves IN_FLASHLOAN set, or an account whose last
   risk-increasing action has not been followed by a passed initial-margin check *)
Theorem C11_no_flag_survives : forall (BW PF : Type) (R : env BW PF) (w w' : world BW PF) tx,
  (forall k, ofl w k = false) -> (forall k, ouc w k = false) -> exec_tx R w tx = Some w' ->
  forall k, ofl w' k = false /\ ouc w' k = false.
Proof.
  intros BW PF R w w' tx F U H.
  assert (I0 : pw (flO (map t_d tx) 0) w).
  { intros k. specialize (F k). specialize (U k). unfold ofl, ouc in *. destruct (w_accts w k); [|exact I]. split; congruence. }
  intros k. pose proof (tx_flashloan R w w' tx I0 H k) as Ik. unfold ofl, ouc. destruct (w_accts w' k) as [A|]; [|auto].
  destruct Ik as [P Un].
  assert (Ff : f_fl (a_fl A) = false).
  { destruct (f_fl (a_fl A)); [|reflexivity]. destruct (P eq_refl) as (j & d & Hj & Nj & _). apply nth_z_Some in Nj. lia. }
  split; [exact Ff|]. destruct (a_unchk A); [|reflexivity]. rewrite (Un eq_refl) in Ff. discriminate.
Qed.

(* (3) the end instruction clears the flag and runs the full initial-margin check on the
   portfolio as it stands (which it leaves unchanged), never via CPI *)
Theorem C11_end_enforces_init_health : forall (BW PF : Type) (R : env BW PF) cpi (w : world BW PF) a auth norem w',
  h_end_fl R cpi w a auth norem = Ok w' ->
  cpi = false /\
  exists A, w_accts w a = Some A /\ a_auth A = auth /\
    (* with its risk accounts the full check on the current world; WITHOUT them (norem) the engine's own verdict on
       an empty account list, which for the concrete engine only an account without balances passes (below) *)
    (if norem then e_init_check_norem R (a_pf A) else e_init_check R (w_bw w) (a_pf A)) = Ok tt /\
    ofl w' a = false /\ ouc w' a = false /\
    (exists A', w_accts w' a = Some A' /\ a_pf A' = a_pf A) /\ w_bw w' = w_bw w.
Proof.
  intros BW PF R cpi w a auth norem w' H. apply h_end_fl_ok in H as (-> & A & EA & Ea & _ & Ei & ->).
  split; [reflexivity|]. exists A. unfold ofl, ouc. cbn. rewrite Z.eqb_refl. repeat split; auto.
  eexists. split; reflexivity.
Qed.

(* for the concrete engine of the correspondence: omitting the risk accounts is accepted only on an account without
   any active balance, whose full check passes too *)
Theorem C11_end_without_risk_accounts_only_if_empty : forall cpi (w : world tbw tpf) a auth w',
  h_end_fl toy_env cpi w a auth true = Ok w' ->
  exists A, w_accts w a = Some A /\ a_pf A = [] /\ toy_init_check (w_bw w) (a_pf A) = Ok tt.
Proof.
  intros cpi w a auth w' H. apply h_end_fl_ok in H as (_ & A & EA & _ & _ & Hn & _).
  exists A. split; [exact EA|]. cbn in Hn. destruct (a_pf A); [auto | discriminate].
Qed.

Theorem C11_not_via_cpi : forall (BW PF : Type) (R : env BW PF) (w : world BW PF),
  (forall K ixes cur a r, is_ok (h_start R K ixes cur true w a r) = false) /\
  (forall K a s, is_ok (h_end R K true w a s) = false) /\
  (forall ixes cur a au e, is_ok (h_start_fl ixes cur true w a au e) = false) /\
  (forall a au nr, is_ok (h_end_fl R true w a au nr) = false).
Proof. exact (@bracket_ops_not_in_cpi). Qed.

(* (4) liquidation (both designs), bankruptcy, transfer and nesting are impossible while the
   flag is set.  Code: liquidate_start.rs:196,236 (constraint); marginfi_account.rs:506
   (RiskEngine::new) for the liquidatee in liquidate.rs:170; handle_bankruptcy.rs:238;
   transfer_account.rs:37,162; flashloan.rs:111 *)
Theorem C11_flashloan_blocks : forall (BW PF : Type) (R : env BW PF) (w : world BW PF) a A,
  w_accts w a = Some A -> f_fl (a_fl A) = true ->
  (forall K ixes cur cpi r, is_ok (h_start R K ixes cur cpi w a r) = false) /\
  (forall l s ab lb m, is_ok (h_liquidate R w l s a ab lb m) = false) /\
  (forall s b, is_ok (h_bankruptcy R w a s b) = false) /\
  (forall n s na, is_ok (h_transfer R w a n s na) = false) /\
  (forall ixes cur cpi au e, is_ok (h_start_fl ixes cur cpi w a au e) = false).
Proof.
  intros BW PF R w a A EA Ff. repeat split; intros; apply is_ok_false; intros v H.
  - apply h_start_ok in H as (_ & _ & A0 & _ & E0 & _ & [F _] & _). congruence.
  - apply h_liquidate_ok in H as [_ H]. destruct (touch_guard H EA) as [F _]. congruence.
  - apply h_bankruptcy_ok in H. destruct (touch_guard H EA) as [F _]. congruence.
  - apply h_transfer_ok in H. destruct (touch_guard H EA) as [F _]. congruence.
  - apply h_start_fl_ok in H as (_ & A0 & E0 & _ & [F _] & _). congruence.
Qed.

(* Non-vacuity: account 3 (100 C at $10, init weight 0.5 => $500 of initial collateral) borrows
   100 L inside a flash loan bracket and repays it: commits with the flag clear; borrowing 900 L
   ($1125 initial liability) without repaying is stopped by the end instruction; naming a wrong end
   index, nesting, or omitting the end does not commit; outside a bracket the same borrow is
   refused immediately by the initial-margin check. *)
Definition fx_bw : tbw :=
  [(31, mkTB (10 * ONE) (ONE / 2) (3 * ONE / 4) ONE ONE 6); (32, mkTB ONE ONE ONE (5 * ONE / 4) ONE 6)].
Definition fx_F : acct tpf := mkA fl_zero 13 false false 0 c4_zero [(31, (100000000, 0)); (32, (0, 0))] false.
Definition fx_w : world tbw tpf := toy_world [(3, fx_F)] fx_bw 21 21 (ONE / 10).

Example C11_nonvacuous :
  (forall k, ofl fx_w k = false) /\ (forall k, ouc fx_w k = false) /\
  (match toy_exec_tx fx_w (map top [mk_CB; mk_SF 3 13 4; mk_BR 3 13 32 100000000; mk_RP 3 13 32 100000000; mk_EF 3 13]) with
   | Some w' => ofl w' 3 = false /\ ouc w' 3 = false | None => False end) /\
  toy_exec_tx_r fx_w (map top [mk_SF 3 13 2; mk_BR 3 13 32 900000000; mk_EF 3 13]) = Aborted 2 (E 6009) /\
  toy_exec_tx_r fx_w (map top [mk_BR 3 13 32 900000000]) = Aborted 0 (E 6009) /\
  toy_exec_tx fx_w (map top [mk_SF 3 13 1; mk_BR 3 13 32 100000000; mk_EF 3 13]) = None /\
  toy_exec_tx fx_w (map top [mk_SF 3 13 3; mk_SF 3 13 3; mk_BR 3 13 32 1; mk_EF 3 13]) = None /\
  toy_exec_tx fx_w (map top [mk_SF 3 13 1]) = None /\
  toy_exec_tx fx_w [top (mk_SF 3 13 2); proxy PJup (mk_BR 3 13 32 900000000); top (mk_EF 3 13)] = None /\
  toy_exec_tx fx_w [proxy PJup (mk_SF 3 13 1); top (mk_EF 3 13)] = None.
Proof.
  split; [intros k; unfold ofl, fx_w, toy_world; cbn [w_accts assoc]; destruct (3 =? k); reflexivity|].
  split; [intros k; unfold ouc, fx_w, toy_world; cbn [w_accts assoc]; destruct (3 =? k); reflexivity|].
  vm_compute. repeat split; reflexivity.
Qed.

Print Assumptions C11_start_checks.
Print Assumptions C11_end_without_risk_accounts_only_if_empty.
Print Assumptions C11_start.
Print Assumptions C11_no_flag_survives.
Print Assumptions C11_end_enforces_init_health.
Print Assumptions C11_not_via_cpi.
Print Assumptions C11_flashloan_blocks.
