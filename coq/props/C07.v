(* C07 — Bankruptcy: only real bad debt is discharged; insurance first, rest pro rata.
   The handler theorems are read off its inversion (BankruptcyLemmas.h_bankruptcy_inv: the handler's effect with
   the amounts in closed form) and, under the ledger invariants, off bankruptcy_after (the bank and the balance
   after the handler); socialize_loss off socialize_loss_inv.
   Model: Handlers.h_bankruptcy (lending_pool_handle_bankruptcy, every branch / rounding / abort point),
   Risk.check_bankrupt (RiskEngine::check_account_bankrupt), Bank.socialize_loss (Bank::socialize_loss),
   Bank.increase_balance (BankAccountWrapper::repay), token movement with the Token-2022 transfer fee
   (TransferFee.v).  All numbers are raw I80F48 bits (value * 2^48); `x / 2^48` is floor division.
   Quantification: every world (any number of banks / accounts / positions, any oracle feeds, any
   insurance balance, any token program and fee setting), every account index a and bank index b. *)
Require Import Base Constants Panic AnchorTypes AnchorSem Gate AccountsTable HandlerFacts Spec AnchorSemLemmas AuthLemmas.
Require Import Fixed Curve Bank BankOps Risk TransferFee Handlers FixedLemmas BankLemmas LedgerLemmas BankruptcyLemmas.
Require Import HandlerLemmas SolvencyLemmas HandlerEffects HandlerWorld.
Require Import ConfigGen Config Emode ConfigPaths ConfigLemmas.
Local Open Scope string_scope.
Local Open Scope Z_scope.

(* (1) Only real bad debt. If the handler succeeds then: the risk engine's EQUITY components (all weights 1,
   no e-mode, no init discount) of the account satisfy A < L, A < $0.1 and L > $0.0001; the account is not in
   a flash loan; the bank is neither killed nor paused; and the account holds an ACTIVE balance in bank b whose
   liability amount, valued with the share value AFTER interest accrual to the current time, exceeds 0.0001
   native units ("a bank where the account actually owes"). *)
Theorem C07_only_real_bad_debt :
  forall w a b w', h_bankruptcy w a b = Ok w' ->
  exists hb ac ps A L bk1 i bl,
    nth_bank w b = Ok hb /\ nth_acct w a = Ok ac /\
    positions w (ha_la ac) = Ok ps /\ health_components ps RqEquity = Ok (A, L) /\
    A < L /\ 10 * A < 2 ^ 48 /\ 2 ^ 48 < 10000 * L /\
    aflag ac ACCOUNT_IN_FLASHLOAN = false /\
    b_op_state (hb_b hb) <> OP_KILLED /\ b_op_state (hb_b hb) <> OP_PAUSED /\
    accrue_interest (hb_b hb) (hw_pf w) (hw_now w) = Ok bk1 /\
    nth_error (ha_la ac) i = Some bl /\ bl_active bl = true /\ bl_bank bl = bank_pk b /\
    2 ^ 48 < 10000 * (bl_l bl * b_lsv bk1 / 2 ^ 48).
Proof.
  intros w a b w' H.
  apply h_bankruptcy_inv in H as (hb & ac & ps & A & L & bk1 & i & bl & fi & pre & f & bk2 & kill & bk3 & bl3 & bk4 & F).
  destruct F as [(Hb & Ha & _) (S1 & S2) Hfl Hps Hh (B1 & B2 & B3) Hacc (L1 & L2 & L3) Ow _ _ _ _ _ _ _ _].
  unfold bad_debt in Ow. change ONE with (2 ^ 48) in Ow. unfold BANKRUPT_THRESHOLD in B2. unfold ZERO_AMOUNT_THRESHOLD in B3, Ow.
  exists hb, ac, ps, A, L, bk1, i, bl.
  split; [exact Hb|]. split; [exact Ha|]. split; [exact Hps|]. split; [exact Hh|]. split; [exact B1|]. split; [lia|]. split; [lia|].
  split; [exact Hfl|]. split; [exact S1|]. split; [exact S2|]. split; [exact Hacc|].
  split; [exact L1|]. split; [exact L2|]. split; [exact L3|]. lia.
Qed.

Theorem C07_equity_is_unweighted : forall c s, get_weight c RqEquity s = 2 ^ 48.
Proof. reflexivity. Qed.

(* (1') "Unweighted assets". The engine's equity components value deposits in ISOLATED-tier banks at 0 (for every
   requirement type). `unweighted_components` values every deposit at weight 1. Restricted statement: for accounts
   without a deposit in an isolated-tier bank the accepted bankruptcy satisfies the property's test on the
   unweighted assets ... *)
Theorem C07_only_real_bad_debt_unweighted :
  forall w a b w', h_bankruptcy w a b = Ok w' ->
  exists ac ps, nth_acct w a = Ok ac /\ positions w (ha_la ac) = Ok ps /\
    (forallb (fun p => negb (isolated_deposit p)) ps = true ->
     exists A L, unweighted_components ps = Ok (A, L) /\ A < L /\ 10 * A < 2 ^ 48 /\ 2 ^ 48 < 10000 * L).
Proof.
  intros w a b w' H.
  destruct (C07_only_real_bad_debt _ _ _ _ H) as (hb & ac & ps & A & L & bk1 & i & bl & _ & Ha & Hp & Hh & H1 & H2 & H3 & _).
  exists ac, ps. split; [exact Ha|]. split; [exact Hp|]. intros Hn. exists A, L.
  rewrite (unweighted_is_equity _ Hn). auto.
Qed.

(* ... and without that restriction it is REFUTED (known finding `bankruptcy-ignores-isolated-tier-deposits`, replayed
   on the real handler): an account holding a $5000 deposit in an isolated-tier bank and a $100 debt is accepted as
   bankrupt; its unweighted assets are neither below its liabilities nor below $0.1. *)
Theorem C07_unweighted_assets_refuted :
  exists w a b w' ac ps A L,
    h_bankruptcy w a b = Ok w' /\ nth_acct w a = Ok ac /\ positions w (ha_la ac) = Ok ps /\
    unweighted_components ps = Ok (A, L) /\ L <= A /\ 2 ^ 48 <= 10 * A.
Proof.
  destruct (h_bankruptcy ex_w_iso 1 0) as [w'|e] eqn:E; [|vm_compute in E; discriminate].
  destruct (nth_acct ex_w_iso 1) as [ac|e] eqn:Ea; [|vm_compute in Ea; discriminate].
  destruct (positions ex_w_iso (ha_la ac)) as [ps|e] eqn:Ep.
  2: { vm_compute in Ea. apply Ok_inj in Ea. subst ac. vm_compute in Ep. discriminate. }
  exists ex_w_iso, 1%nat, 0%nat, w', ac, ps, (5000 * ONE), (100 * ONE).
  split; [exact E|]. split; [exact Ea|]. split; [exact Ep|].
  vm_compute in Ea. apply Ok_inj in Ea. subst ac. vm_compute in Ep. apply Ok_inj in Ep. subst ps.
  split; [vm_compute; reflexivity|]. split; vm_compute; discriminate.
Qed.

(* (2) Insurance first. bad = the position's liability amount after accrual; avail = insurance vault balance
   net of the Token-2022 transfer fee on that balance (fi = 0 for SPL mints); covered = min(bad, avail);
   loss = bad - covered >= 0 and a loss is socialised ONLY when the whole available insurance is used
   (covered = avail).  The insurance vault pays `pre` = the pre-fee amount for ceil(covered) tokens, the
   liquidity vault receives pre - fee(pre) >= ceil(covered) (for a sane fee config), fee destinations are
   untouched, and exactly `loss` is handed to socialize_loss on the accrued bank. *)
Theorem C07_insurance_first :
  forall w a b w', h_bankruptcy w a b = Ok w' ->
  exists hb hb' ac i bl bk1 fi pre f bk2 kill,
    nth_bank w b = Ok hb /\ nth_bank w' b = Ok hb' /\ nth_acct w a = Ok ac /\
    nth_error (ha_la ac) i = Some bl /\ bl_active bl = true /\ bl_bank bl = bank_pk b /\
    accrue_interest (hb_b hb) (hw_pf w) (hw_now w) = Ok bk1 /\
    let bad := bl_l bl * b_lsv bk1 / ONE in
    tfee hb (hb_insv hb) = Ok fi /\
    let avail := (hb_insv hb - fi) * ONE in
    let covered := Z.min bad avail in
    let loss := bad - covered in
    let moved := (covered + ONE - 1) / ONE in
    0 <= loss /\ (0 < loss -> covered = avail) /\
    pre_fee hb moved = Ok pre /\ tfee hb pre = Ok f /\ pre <= hb_insv hb /\
    hb_insv hb' = hb_insv hb - pre /\ hb_vault hb' = hb_vault hb + pre - f /\
    hb_feev hb' = hb_feev hb /\ hb_feeata hb' = hb_feeata hb /\
    (0 <= hb_tf_bps hb <= 10000 -> 0 <= hb_tf_max hb -> moved <= pre - f /\ 0 <= f) /\
    (hb_t22 hb = false -> fi = 0 /\ pre = moved /\ f = 0) /\
    socialize_loss bk1 loss = Ok (bk2, kill).
Proof.
  intros w a b w'.
  intros H. apply h_bankruptcy_inv in H as (hb & ac & ps & A & L & bk1 & i & bl & fi & pre & f & bk2 & kill & bk3 & bl3 & bk4 & F).
  destruct F as [E _ _ _ _ _ Facc (L1 & L2 & L3) _ Ffi Fpre Fcr Ffunds Ffee Fsoc _ _].
  destruct (eff1_banks _ _ _ _ _ _ _ _ E) as (B & B' & _).
  eexists hb, _, ac, i, bl, bk1, fi, pre, f, bk2, kill.
  split; [exact B|]. split; [exact B'|]. split; [exact (proj1 (proj2 E))|].
  split; [exact L1|]. split; [exact L2|]. split; [exact L3|]. split; [exact Facc|].
  cbv zeta. unfold bad_debt, uncovered, ceil_tokens in *.
  split; [exact Ffi|]. split; [lia|]. split; [lia|]. split; [exact Fpre|]. split; [exact Ffee|]. split; [exact Ffunds|].
  split; [reflexivity|]. split; [reflexivity|]. split; [reflexivity|]. split; [reflexivity|].
  split; [intros Hb Hm; exact (pre_fee_covers _ _ _ _ Hb Hm (proj1 Fcr) Fpre Ffee)|].
  split; [|exact Fsoc].
  intros T. unfold tfee, pre_fee in *. rewrite T in *. apply Ok_inj in Ffi, Fpre, Ffee. lia.
Qed.

(* (3) Socialisation, for every bank with non-negative share value and total shares and every loss >= 0:
   only the asset share value changes; 0 <= asv' <= asv; loss >= total deposits => asv' = 0 and kill; kill is
   returned exactly when asv' = 0; otherwise total deposits (scale 2^96) fall by at least loss and by less than
   loss + 1 ulp + tas ulps of the share value (at get_asset_amount precision: by loss up to tas/2^48 + 1 ulps);
   every claim is valued with the same asv' (pro rata: claims scale by asv'/asv), no claim grows. *)
Theorem C07_socialize_loss :
  forall b loss b' kill,
  0 <= b_asv b -> 0 <= b_tas b -> 0 <= loss -> socialize_loss b loss = Ok (b', kill) ->
  b' = set_b_asv (b_asv b') b /\
  0 <= b_asv b' <= b_asv b /\
  (b_tas b * b_asv b / 2 ^ 48 <= loss -> b_asv b' = 0 /\ kill = true) /\
  (kill = true <-> b_asv b' = 0) /\
  (loss < b_tas b * b_asv b / 2 ^ 48 ->
     loss * 2 ^ 48 <= b_tas b * b_asv b - b_tas b * b_asv b' /\
     b_tas b * b_asv b / 2 ^ 48 - loss - (b_tas b / 2 ^ 48 + 1) <= b_tas b * b_asv b' / 2 ^ 48 /\
     b_tas b * b_asv b' / 2 ^ 48 <= b_tas b * b_asv b / 2 ^ 48 - loss) /\
  b_tas b * b_asv b - b_tas b * b_asv b' < (loss + 1) * 2 ^ 48 + b_tas b /\
  (forall s1 s2, (s1 * b_asv b') * (s2 * b_asv b) = (s2 * b_asv b') * (s1 * b_asv b)) /\
  (forall s, 0 <= s -> s * b_asv b' <= s * b_asv b /\ s * b_asv b' / 2 ^ 48 <= s * b_asv b / 2 ^ 48).
Proof.
  intros b loss b' kill Ha Ht Hl H. change (2 ^ 48) with ONE.
  destruct (socialize_loss_inv _ _ _ _ Ha Ht Hl H) as [F1 F2 F3 F4 F5 F6 F7].
  destruct (pro_rata _ _ F2) as [P1 P2].
  split; [exact F1|]. split; [exact F2|]. split; [exact F3|]. split; [exact F4|].
  split; [intros Hlt; exact (conj (F5 Hlt) (F7 Hlt))|]. split; [exact F6|]. split; [exact P1|exact P2].
Qed.

(* the same operation inside any world satisfying the C02 ledger invariant (level B, no side conditions) *)
Theorem C07_socialize_in_ledger_worlds :
  forall w b loss w' r,
  Ledger w -> 0 <= loss -> bstep w (BSocialize b loss) = Ok (w', r) ->
  exists bk bk' kill, bank_of w b = Some bk /\ bank_of w' b = Some bk' /\ soc_facts bk loss bk' kill /\
    r = Some (if kill then 1 else 0) /\ bw_accts w' = bw_accts w /\
    (forall k, k <> b -> bank_of w' k = bank_of w k).
Proof.
  intros w b loss w' r.
  intros L Hl H. cbn [bstep] in H.
  apply bind_ok in H as (bk & Hbk & H). apply bind_ok in H as ([bk' kill] & Hs & H).
  apply pair_ok in H as [<- <-].
  pose proof (nth_res_ok _ _ _ Hbk) as Ebk. destruct (Ledger_tot_nonneg w b bk L Ebk) as [Hta Htl].
  destruct (Forall_nth_error _ _ _ _ (lg_sv w L) Ebk) as [Sa Sl].
  exists bk, bk', kill. split; [exact Ebk|]. split.
  { unfold bank_of, put_bank. cbn [bw_banks]. eapply nth_set_nth_same; eauto. }
  split; [apply socialize_loss_inv; assumption|]. split; [reflexivity|]. split; [reflexivity|].
  intros k Hk. unfold bank_of, put_bank. cbn [bw_banks]. apply nth_set_nth_other. congruence.
Qed.

(* (4) The handler applies exactly that to the accrued bank and touches nobody's asset shares. Pre-state
   assumptions = the C02 ledger invariants of the bank and of the account's balances. The bank is set to
   KilledByBankruptcy (3) exactly when the new share value is 0, in particular whenever loss >= total deposits;
   otherwise its operational state is unchanged. Other banks, other accounts and the asset shares / bank /
   active flag of every slot of this account are unchanged, so every depositor's claim shares * asv' is
   reduced in the same proportion asv'/asv. (Leaving state 3 is impossible for every admin path: C13_killed_forever, C13_killed_forever_sequences.) *)
Theorem C07_loss_shared_pro_rata :
  forall w a b w', h_bankruptcy w a b = Ok w' ->
  forall hb ac, nth_bank w b = Ok hb -> nth_acct w a = Ok ac ->
  bank_sane (hb_b hb) -> Forall wf_bal (ha_la ac) ->
  exists hb' bk1 i bl fi kill,
    nth_bank w' b = Ok hb' /\
    accrue_interest (hb_b hb) (hw_pf w) (hw_now w) = Ok bk1 /\
    nth_error (ha_la ac) i = Some bl /\ bl_active bl = true /\ bl_bank bl = bank_pk b /\
    tfee hb (hb_insv hb) = Ok fi /\
    (* the uncovered amount of C07_insurance_first *)
    let bad := bl_l bl * b_lsv bk1 / ONE in
    let loss := bad - Z.min bad ((hb_insv hb - fi) * ONE) in
    0 <= loss /\ b_tas bk1 = b_tas (hb_b hb) /\ 0 <= b_asv bk1 /\ 0 <= b_tas bk1 /\
    (exists bk2, socialize_loss bk1 loss = Ok (bk2, kill) /\ b_asv (hb_b hb') = b_asv bk2) /\
    b_tas (hb_b hb') = b_tas bk1 /\
    0 <= b_asv (hb_b hb') <= b_asv bk1 /\
    (b_tas bk1 * b_asv bk1 / ONE <= loss -> b_asv (hb_b hb') = 0 /\ b_op_state (hb_b hb') = 3) /\
    (b_op_state (hb_b hb') = 3 <-> b_asv (hb_b hb') = 0) /\
    (b_op_state (hb_b hb') <> 3 -> b_op_state (hb_b hb') = b_op_state (hb_b hb)) /\
    (loss < b_tas bk1 * b_asv bk1 / ONE ->
       loss * 2 ^ 48 <= b_tas bk1 * b_asv bk1 - b_tas bk1 * b_asv (hb_b hb')) /\
    b_tas bk1 * b_asv bk1 - b_tas bk1 * b_asv (hb_b hb') < (loss + 1) * 2 ^ 48 + b_tas bk1 /\
    (forall k, k <> b -> nth_bank w' k = nth_bank w k) /\
    (forall k, k <> a -> nth_acct w' k = nth_acct w k) /\
    (exists ac', nth_acct w' a = Ok ac' /\ List.length (ha_la ac') = List.length (ha_la ac) /\
       forall j x, nth_error (ha_la ac) j = Some x ->
         exists x', nth_error (ha_la ac') j = Some x' /\ bl_a x' = bl_a x /\ bl_bank x' = bl_bank x /\ bl_active x' = bl_active x).
Proof.
  intros w a b w'.
  intros H hb ac Hb Ha Hs Hw.
  destruct (bankruptcy_after _ _ _ _ _ _ H Hb Ha Hs Hw)
    as (hb' & bk1 & i & bl & fi & bk2 & kill & bl3 & E & Hacc & (L1 & L2 & L3) & Hfi & Hsoc & SF & ((S1a & _ & S1t & _) & T1 & _ & O1) &
        NK & (A5 & _ & T5 & _ & O5 & BA & BAct & BBank & _) & _).
  destruct SF as [_ Rg Wp Kl Lo Up _].
  destruct (eff1_banks _ _ _ _ _ _ _ _ E) as (_ & B' & Bo). destruct (eff1_accts _ _ _ _ _ _ _ _ E) as (_ & A' & Ao).
  exists hb', bk1, i, bl, fi, kill. change (2 ^ 48) with ONE. change 3 with OP_KILLED.
  change (bl_l bl * b_lsv bk1 / ONE - Z.min (bl_l bl * b_lsv bk1 / ONE) ((hb_insv hb - fi) * ONE))
    with (uncovered (bad_debt bk1 bl) (hb_insv hb - fi)). cbv zeta. rewrite A5, O5, O1.
  split; [exact B'|]. split; [exact Hacc|]. split; [exact L1|]. split; [exact L2|]. split; [exact L3|]. split; [exact Hfi|].
  split; [apply uncovered_nonneg|]. split; [exact T1|]. split; [exact S1a|]. split; [exact S1t|].
  split; [exists bk2; split; [exact Hsoc|reflexivity]|]. split; [exact T5|]. split; [exact Rg|].
  split. { intros Hwp. destruct (Wp Hwp) as [Z1 ->]. split; [exact Z1|reflexivity]. }
  (* the bank is killed exactly when kill is returned, i.e. when the new share value is 0 *)
  split. { rewrite <- Kl. destruct kill; split; intros HH; try reflexivity; [contradiction|discriminate]. }
  split. { destruct kill; [intros NK'; contradiction|reflexivity]. }
  split; [exact Lo|]. split; [exact Up|]. split; [exact Bo|]. split; [exact Ao|].
  eexists. split; [exact A'|]. cbn [ha_la]. split; [clear; generalize (ha_la ac) i; induction l as [|x r IH]; intros [|n]; cbn; auto|].
  intros j x Hj. destruct (Nat.eq_dec i j) as [<-|Hne].
  - rewrite (nth_set_nth_same _ _ _ _ L1). rewrite Hj in L1. apply Some_inj in L1 as ->.
    exists bl3. split; [reflexivity|]. split; [exact BA|]. split; assumption.
  - rewrite nth_set_nth_other by assumption. exists x. auto.
Qed.

(* (5) Debt cleared, account disabled. ACCOUNT_DISABLED (1) is set and every other flag kept; the position's
   liability shares fall to a residual r with 0 <= r <= before and r * lsv < 2^48 + lsv at scale 2^96 (i.e. the
   remaining debt is below one ulp of a token plus one ulp of the share value — far below the 0.0001 dust
   threshold for any share value < 2.8e10); its asset shares are unchanged; the bank's total liability shares
   move by exactly the position's change and total asset shares do not move (C02). *)
Theorem C07_debt_cleared_account_disabled :
  forall w a b w', h_bankruptcy w a b = Ok w' ->
  forall hb ac, nth_bank w b = Ok hb -> nth_acct w a = Ok ac ->
  bank_sane (hb_b hb) -> Forall wf_bal (ha_la ac) ->
  exists hb' ac' i bl bl',
    nth_bank w' b = Ok hb' /\ nth_acct w' a = Ok ac' /\
    nth_error (ha_la ac) i = Some bl /\ bl_active bl = true /\ bl_bank bl = bank_pk b /\
    nth_error (ha_la ac') i = Some bl' /\ bl_active bl' = true /\ bl_bank bl' = bank_pk b /\
    aflag ac' 1 = true /\ (forall k, aflag ac k = true -> aflag ac' k = true) /\
    0 <= bl_l bl' <= bl_l bl /\ bl_l bl' * b_lsv (hb_b hb') < 2 ^ 48 + b_lsv (hb_b hb') /\
    bl_a bl' = bl_a bl /\
    b_tls (hb_b hb') - b_tls (hb_b hb) = bl_l bl' - bl_l bl /\ b_tas (hb_b hb') = b_tas (hb_b hb) /\
    0 < b_lsv (hb_b hb').
Proof.
  intros w a b w'.
  intros H hb ac Hb Ha Hs Hw.
  destruct (bankruptcy_after _ _ _ _ _ _ H Hb Ha Hs Hw)
    as (hb' & bk1 & i & bl & fi & bk2 & kill & bl3 & E & _ & (L1 & L2 & L3) & _ & _ & _ & ((_ & S1l & _) & T1 & T2 & _) &
        _ & (_ & L5 & T5 & TL5 & _ & BA & BAct & BBank & R & Q) & _).
  destruct (eff1_banks _ _ _ _ _ _ _ _ E) as (_ & B' & _). destruct (eff1_accts _ _ _ _ _ _ _ _ E) as (_ & A' & _).
  eexists hb', _, i, bl, bl3. change (2 ^ 48) with ONE. rewrite L5, T5, T1, <- T2.
  split; [exact B'|]. split; [exact A'|]. split; [exact L1|]. split; [exact L2|]. split; [exact L3|].
  cbn [ha_la]. split; [exact (nth_set_nth_same _ _ _ _ L1)|]. split; [congruence|]. split; [congruence|].
  unfold aflag. cbn [ha_flags].
  split; [change 1 with ACCOUNT_DISABLED; rewrite land_lor_absorb; apply Z.eqb_refl|].
  split; [intros k Hk; apply Z.eqb_eq in Hk; apply Z.eqb_eq, lor_keeps_flag, Hk|].
  repeat (split; [assumption|]). split; [reflexivity|exact S1l].
Qed.

(* (6) Who may call: the signer check lives in the handler body; it is part of `accepted` (Spec.v) over the
   account table regenerated from the source (= C08_bankruptcy, restated with the flag value 4 =
   PERMISSIONLESS_BAD_DEBT_SETTLEMENT_FLAG): the signer signed, bank and account belong to the group, and
   either the bank opted into permissionless settlement or the signer is the group's risk admin or admin. *)
Theorem C07_who_may_call :
  forall pda opq e,
  In e accounts_table -> e_ix e = "lending_pool_handle_bankruptcy" ->
  forall w b sg, Spec.accepted pda opq e w b sg = true ->
  exists ks kg kb ka, bkey b "signer" = Some ks /\ bkey b "group" = Some kg /\ bkey b "bank" = Some kb /\
    bkey b "marginfi_account" = Some ka /\ In ks sg /\
    typed w kg "MarginfiGroup" /\ typed w kb "Bank" /\ typed w ka "MarginfiAccount" /\
    key_field (acct_of w kb) "group" = Some kg /\ key_field (acct_of w ka) "group" = Some kg /\
    (bank_get_flag (num_field (acct_of w kb) "flags") 4 = true \/
     key_field (acct_of w kg) "risk_admin" = Some ks \/ key_field (acct_of w kg) "admin" = Some ks).
Proof. exact bankruptcy_roles. Qed.

(* Non-vacuity. One bank (share values 1, 1000 deposit shares of a lender, 100 liability shares of a debtor
   without assets, price $1, 0 decimals), 30 tokens in the insurance vault: the handler succeeds, the insurance
   vault is emptied into the liquidity vault, 70 are socialised (share value 0.93), the debtor is disabled with
   no debt left. With 50 deposit shares and no insurance the bank is wiped out and killed. The solvent lender
   cannot be declared bankrupt. *)
Example C07_nonvacuous :
  ex_view (h_bankruptcy (ex_w 1000 30) 1 0) = Some (930 * ONE / 1000, 1, 930, 0, 1, 0) /\
  ex_view (h_bankruptcy (ex_w 50 0) 1 0) = Some (0, 3, 900, 0, 1, 0) /\
  h_bankruptcy (ex_w 1000 30) 0 0 = Err (E E_AccountNotBankrupt) /\
  bank_sane (ex_bank 1000) /\ Forall wf_bal (ex_la (ex_slot 0 100)).
Proof.
  split; [vm_compute; reflexivity|]. split; [vm_compute; reflexivity|]. split; [vm_compute; reflexivity|].
  split; [unfold bank_sane; vm_compute; repeat split; discriminate|].
  repeat constructor; vm_compute; discriminate.
Qed.

(* 'permanently shut': whatever sequence of configuration requests follows (accepted or refused), the bank stays in the
   killed state, in which validate_bank_state refuses every instruction kind *)
Theorem C07_killed_bank_permanently_shut :
  forall g rs b k,
  op_of b = OP_KILLED ->
  Gate.opstate_of_Z (op_of (apply_reqs g b rs)) = Some Gate.KilledByBankruptcy /\
  Gate.validate_bank_state Gate.KilledByBankruptcy k = Err (E E_BankKilledByBankruptcy).
Proof. exact killed_permanently. Qed.

Print Assumptions C07_only_real_bad_debt.
Print Assumptions C07_killed_bank_permanently_shut.
Print Assumptions C07_equity_is_unweighted.
Print Assumptions C07_only_real_bad_debt_unweighted.
Print Assumptions C07_unweighted_assets_refuted.
Print Assumptions C07_insurance_first.
Print Assumptions C07_socialize_loss.
Print Assumptions C07_socialize_in_ledger_worlds.
Print Assumptions C07_loss_shared_pro_rata.
Print Assumptions C07_debt_cleared_account_disabled.
Print Assumptions C07_who_may_call.

(* the local hypotheses of C07_loss_shared_pro_rata and C07_debt_cleared_account_disabled (bank_sane, Forall wf_bal)
   hold in every state reachable from a well-formed world: HOk2 is preserved by every instruction
   (C01_wellformedness_preserved) and implies them *)
Theorem C07_hypotheses_hold_in_wellformed_worlds :
  forall w, HandlerWorld.HOk2 w ->
  (forall b hb, nth_bank w b = Ok hb -> bank_sane (hb_b hb)) /\
  (forall a ac, nth_acct w a = Ok ac -> Forall wf_bal (ha_la ac)).
Proof.
  intros w H. split; [|intros a ac; apply HandlerWorld.acct_wf_of; exact H].
  intros b hb Hb. destruct H as (_ & _ & Hbk). exact (hb_ok_sane _ (proj1 (Hbk _ _ Hb))).
Qed.

Print Assumptions C07_hypotheses_hold_in_wellformed_worlds.
