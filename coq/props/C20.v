(* C20 — Integration exchange-rate math never overstates value and fails closed.
   Quantification: all venue states (every u64/u128/u32/u8 field value where a width is needed at all — premises
   kr_ok / sr_ok / dm_ok or explicit ranges), all amounts, prices and ratios, all decimals. No size bounds.
   Conventions: I80F48 values are raw bits (value * 2^48, ONE = 2^48); `/` is floor division, Z.quot truncation;
   res = Ok v | Err ENone (Option::None) | Err (E code) | Err EPanic (abort).
   k_total_exact / s_total_exact : the exact I80F48 total liquidity of a Kamino / Solend reserve
   (C20_venue_supply_math_never_aborts_or_wraps shows that the program computes exactly these). *)
Require Import Base Constants XrateConsts Fixed Xrate FixedLemmas NumLemmas XrateLemmas.
From Coq Require Import ZifyBool.
Local Open Scope Z_scope.

(* round trips never gain *)
Theorem C20_roundtrip_scaled : forall tl tc,
  (forall liq col liq', 0 <= liq ->
     liquidity_to_collateral_from_scaled liq tl tc = Ok col ->
     collateral_to_liquidity_from_scaled col tl tc = Ok liq' -> liq' <= liq) /\
  (forall col liq col', 0 <= col ->
     collateral_to_liquidity_from_scaled col tl tc = Ok liq ->
     liquidity_to_collateral_from_scaled liq tl tc = Ok col' -> col' <= col).
Proof.
  intros tl tc. split; intros a b a'; [exact (c2l_roundtrip a tc tl b a') | exact (c2l_roundtrip a tl tc b a')].
Qed.

Theorem C20_roundtrip_kamino : forall r,
  (forall liq col liq', 0 <= liq ->
     k_liquidity_to_collateral r liq = Ok col -> k_collateral_to_liquidity r col = Ok liq' -> liq' <= liq) /\
  (forall col liq col', 0 <= col ->
     k_collateral_to_liquidity r col = Ok liq -> k_liquidity_to_collateral r liq = Ok col' -> col' <= col).
Proof. intros r. exact (roundtrip_venue (k_scaled_supplies r) _). Qed.

Theorem C20_roundtrip_solend : forall r,
  (forall liq col liq', 0 <= liq ->
     s_liquidity_to_collateral r liq = Ok col -> s_collateral_to_liquidity r col = Ok liq' -> liq' <= liq) /\
  (forall col liq col', 0 <= col ->
     s_collateral_to_liquidity r col = Ok liq -> s_liquidity_to_collateral r liq = Ok col' -> col' <= col).
Proof. intros r. exact (roundtrip_venue (s_scaled_supplies r) _). Qed.

Theorem C20_roundtrip_solend_rate : forall rate,
  (forall liq col liq', 0 <= liq ->
     s_rate_liquidity_to_collateral rate liq = Ok col -> s_rate_collateral_to_liquidity rate col = Ok liq' -> liq' <= liq) /\
  (forall col liq col', 0 <= col ->
     s_rate_collateral_to_liquidity rate col = Ok liq -> s_rate_liquidity_to_collateral rate liq = Ok col' -> col' <= col).
Proof.
  intros rate. pose proof ONE_pos. split; intros a b a' Ha H1 H2.
  - apply s_rate_l2c_inv in H1 as [-> Hb]. apply s_rate_c2l_inv in H2 as (Hr & -> & _). apply rt_math; lia.
  - apply s_rate_c2l_inv in H1 as (Hr & -> & Hb). apply s_rate_l2c_inv in H2 as [-> _]. apply rt_math; lia.
Qed.

(* a conversion never yields more than amount * exact ratio of the (scaled) supplies *)
Theorem C20_conversion_never_overstates : forall tl tc,
  (forall col liq, 0 <= col -> 0 <= tl -> 0 < tc ->
     collateral_to_liquidity_from_scaled col tl tc = Ok liq -> liq = col * tl / tc /\ liq * tc <= col * tl) /\
  (forall liq col, 0 <= liq -> 0 < tl -> 0 <= tc ->
     liquidity_to_collateral_from_scaled liq tl tc = Ok col -> col = liq * tc / tl /\ col * tl <= liq * tc).
Proof.
  intros tl tc. split; intros a b Ha H1 H2.
  - exact (c2l_never_overstates a tl tc b Ha H1 H2).
  - exact (c2l_never_overstates a tc tl b Ha H2 H1).
Qed.

Theorem C20_drift_decrement_ge_increment : forall m a i d,
  0 <= a <= U64_MAX -> 0 <= dm_decimals m -> 0 <= dm_cum_interest m ->
  d_scaled_balance_increment m a = Ok i -> d_scaled_balance_decrement m a = Ok d -> i <= d /\ d <= i + 1.
Proof.
  intros m a i d Ha Hd Hc Hi Hdec.
  apply d_scaled_balance_inv in Hi as (_ & _ & _ & Hi); try assumption.
  apply d_scaled_balance_inv in Hdec as (_ & _ & Hdec & _); try assumption.
  rewrite Hi by reflexivity. assumption.
Qed.

Theorem C20_drift_withdraw_of_increment_le : forall m a i w,
  0 <= a <= U64_MAX -> 0 <= dm_decimals m -> 0 <= dm_cum_interest m ->
  d_scaled_balance_increment m a = Ok i -> d_withdraw_token_amount m i = Ok w -> w <= a.
Proof.
  intros m a i w Ha Hd Hc Hi Hw.
  apply d_scaled_balance_inv in Hi as (Hd19 & Hc0 & _ & Hi); try assumption. rewrite Hi in Hw by reflexivity.
  rewrite d_withdraw_spec in Hw by assumption. replace (dm_decimals m >? 19) with false in Hw by lia.
  apply if_ok_inv in Hw as [_ Hw]. apply if_ok_inv in Hw as [_ Hw]. apply Ok_inj in Hw as <-.
  apply floor_roundtrip; [lia | apply pow10_pos; lia | assumption].
Qed.

(* closed forms: value = exact floor (+1 when rounding up a non-zero balance), error exactly when decimals > 19,
   cumulative interest = 0, the u128 product overflows or the result leaves u64 *)
Theorem C20_drift_conversions_exact :
  (forall m a up, 0 <= a <= U64_MAX -> 0 <= dm_decimals m -> 0 <= dm_cum_interest m ->
     let q := a * 10 ^ (19 - dm_decimals m) / dm_cum_interest m in
     d_scaled_balance m a up =
       if dm_decimals m >? 19 then Err (E E_Drift_MathError) else
       if dm_cum_interest m =? 0 then Err (E E_Drift_math_error_macro) else
       if in_u64 q then
         if up && negb (q =? 0) then (if in_u64 (q + 1) then Ok (q + 1) else Err (E E_Drift_MathError)) else Ok q
       else Err (E E_Anchor_InvalidNumericConversion)) /\
  (forall m sb, 0 <= dm_decimals m ->
     d_withdraw_token_amount m sb =
       if dm_decimals m >? 19 then Err (E E_Drift_MathError) else
       if in_u128 (sb * dm_cum_interest m) then
         if in_u64 (sb * dm_cum_interest m / 10 ^ (19 - dm_decimals m))
         then Ok (sb * dm_cum_interest m / 10 ^ (19 - dm_decimals m)) else Err (E E_Drift_MathError)
       else Err (E E_Drift_math_error_macro)).
Proof. split; [exact d_scaled_balance_spec | exact d_withdraw_spec]. Qed.

Theorem C20_adjust_exact_floor : forall adj raw ratio v,
  In adj [adjust_i128; adjust_i64; adjust_u64] -> adj raw ratio = Ok v -> v = raw * ratio / 2^48.
Proof. exact adjust_exact. Qed.

Theorem C20_adjust_le_price_times_ratio : forall adj raw ratio v,
  In adj [adjust_i128; adjust_i64; adjust_u64] -> adj raw ratio = Ok v -> v * 2^48 <= raw * ratio.
Proof.
  intros adj raw ratio v Hin H. rewrite (adjust_exact adj raw ratio v Hin H). apply div_mul_floor, ONE_pos.
Qed.

Theorem C20_adjust_monotone : forall adj, In adj [adjust_i128; adjust_i64; adjust_u64] ->
  (forall raw1 raw2 r v1 v2, raw1 <= raw2 -> 0 <= r -> adj raw1 r = Ok v1 -> adj raw2 r = Ok v2 -> v1 <= v2) /\
  (forall raw r1 r2 v1 v2, 0 <= raw -> r1 <= r2 -> adj raw r1 = Ok v1 -> adj raw r2 = Ok v2 -> v1 <= v2).
Proof.
  intros adj Hin. pose proof ONE_pos. split; intros ? ? ? v1 v2 ? ? H1 H2;
    rewrite (adjust_exact _ _ _ _ Hin H1), (adjust_exact _ _ _ _ Hin H2).
  - apply div_frac_mono; assumption.
  - apply mul_div_mono; assumption.
Qed.

Theorem C20_ratio_le_exact : forall tl tc r,
  (0 <= tl -> 0 < tc -> liq_to_col_ratio tl tc = Ok r -> r = tl * 2^48 / tc /\ r * tc <= tl * 2^48 /\ 0 <= r) /\
  (0 <= tc -> 0 < tl -> col_to_liq_ratio tl tc = Ok r -> r = tc * 2^48 / tl /\ r * tl <= tc * 2^48 /\ 0 <= r).
Proof. intros tl tc r; split; [exact (ratio_le_exact tl tc r) | exact (ratio_le_exact tc tl r)]. Qed.

Theorem C20_drift_adjust_le_and_monotone : forall adj, In adj [d_adjust_i128; d_adjust_i64; d_adjust_u64] ->
  (forall m raw v, adj m raw = Ok v -> v * 10 ^ 10 <= raw * dm_cum_interest m) /\
  (forall m1 m2 raw1 raw2 v1 v2, 0 <= raw1 <= raw2 -> 0 <= dm_cum_interest m1 <= dm_cum_interest m2 ->
     adj m1 raw1 = Ok v1 -> adj m2 raw2 = Ok v2 -> v1 <= v2).
Proof.
  intros adj Hin. split.
  - intros m raw v H. destruct (d_adjust_exact _ _ _ _ Hin H) as [-> _]. apply div_mul_floor. lia.
  - intros m1 m2 raw1 raw2 v1 v2 Hr Hc H1 H2.
    destruct (d_adjust_exact _ _ _ _ Hin H1) as [-> _]. destruct (d_adjust_exact _ _ _ _ Hin H2) as [-> _].
    apply Z.div_le_mono; [lia|]. apply Z.mul_le_mono_nonneg; lia.
Qed.

(* for ALL inputs: the exact floor when it fits the target type, otherwise None — never a wrapped value *)
Theorem C20_fail_closed_adjust : forall raw r,
  adjust_u64 raw r = (if in_u64 (raw * r / 2^48) then Ok (raw * r / 2^48) else Err ENone) /\
  adjust_i64 raw r = (if in_i64 (raw * r / 2^48) then Ok (raw * r / 2^48) else Err ENone) /\
  adjust_i128 raw r = (if in_range (- 2^79) (2^79 - 1) raw && in_i128 (raw * r) then Ok (raw * r / 2^48) else Err ENone).
Proof. intros; split; [apply adjust_u64_spec | split; [apply adjust_i64_spec | apply adjust_i128_spec]]. Qed.

Theorem C20_fail_closed_conversions :
  (forall col tl tc,
     collateral_to_liquidity_from_scaled col tl tc =
       if tc =? 0 then Err ENone else
       if in_i128 (col * tl) && in_i128 (Z.quot (col * tl * 2^48) tc) && in_u64 (Z.quot (col * tl * 2^48) tc / 2^48)
       then Ok (Z.quot (col * tl * 2^48) tc / 2^48) else Err ENone) /\
  (forall liq tl tc,
     liquidity_to_collateral_from_scaled liq tl tc =
       if tl =? 0 then Err ENone else
       if in_i128 (liq * tc) && in_i128 (Z.quot (liq * tc * 2^48) tl) && in_u64 (Z.quot (liq * tc * 2^48) tl / 2^48)
       then Ok (Z.quot (liq * tc * 2^48) tl / 2^48) else Err ENone) /\
  (forall tl tc,
     liq_to_col_ratio tl tc =
       if tc =? 0 then Err ENone else
       if in_i128 (Z.quot (tl * 2^48) tc) then Ok (Z.quot (tl * 2^48) tc) else Err ENone) /\
  (forall L C d,
     scale_supplies L C d =
       if (0 <=? d) && (d <=? 23) then
         if in_i128 (Z.quot L (10 ^ d)) && in_i128 (Z.quot (C * 2^48) (10 ^ d))
         then Ok (Z.quot L (10 ^ d), Z.quot (C * 2^48) (10 ^ d)) else Err ENone
       else Err ENone) /\
  (forall n f t,
     convert_decimals n f t =
       if f =? t then Ok n else
       if Z.abs (t - f) >? 23 then Err ENone else
       if t - f >? 0 then (if in_i128 (n * 10 ^ (t - f)) then Ok (n * 10 ^ (t - f)) else Err ENone)
       else (if in_i128 (Z.quot n (10 ^ (f - t))) then Ok (Z.quot n (10 ^ (f - t))) else Err ENone)).
Proof.
  split; [exact c2l_spec|]. split; [exact (fun liq tl tc => c2l_spec liq tc tl)|].
  split; [exact liq_to_col_ratio_spec|]. split; [exact scale_supplies_spec|].
  intros n f t. unfold convert_decimals. destruct (f =? t) eqn:E1; [reflexivity|].
  destruct (Z.abs (t - f) >? 23) eqn:E2; [reflexivity|].
  rewrite exp10_fx_get_spec. replace ((0 <=? Z.abs (t - f)) && (Z.abs (t - f) <=? 23)) with true by lia.
  cbn [bind]. destruct (t - f >? 0) eqn:E3.
  - rewrite (Z.abs_eq (t - f)) by lia. apply cmul_pow10.
  - replace (Z.abs (t - f)) with (f - t) by lia. apply cdiv_pow10. lia.
Qed.

Theorem C20_fail_closed_drift :
  (forall m raw,
     d_adjust_i64 m raw =
       (if raw <? 0 then Err (E E_Drift_MathError) else
        if in_u128 (raw * dm_cum_interest m) then
          if in_i64 (raw * dm_cum_interest m / 10 ^ 10) then Ok (raw * dm_cum_interest m / 10 ^ 10)
          else Err (E E_Drift_MathError)
        else Err (E E_Drift_math_error_macro)) /\
     d_adjust_u64 m raw =
       (if in_u128 (raw * dm_cum_interest m) then
          if in_u64 (raw * dm_cum_interest m / 10 ^ 10) then Ok (raw * dm_cum_interest m / 10 ^ 10)
          else Err (E E_Drift_MathError)
        else Err (E E_Drift_math_error_macro)) /\
     d_adjust_i128 m raw =
       (if raw <? 0 then Err (E E_Drift_MathError) else
        if in_u128 (raw * dm_cum_interest m) then
          if in_i128 (raw * dm_cum_interest m / 10 ^ 10) then Ok (raw * dm_cum_interest m / 10 ^ 10)
          else Err (E E_Drift_MathError)
        else Err (E E_Drift_math_error_macro))) /\
  (forall limit dec, 0 <= limit <= U64_MAX -> 0 <= dec <= 255 ->
     scale_drift_deposit_limit limit dec =
       if dec =? 9 then Ok (limit * 2^48) else
       if dec <? 9 then
         (if in_i128 (limit * 2^48 * 10 ^ (9 - dec)) then Ok (limit * 2^48 * 10 ^ (9 - dec)) else Err (E E_Drift_MathError))
       else if dec - 9 <? 24 then Ok (limit * 2^48 / 10 ^ (dec - 9))
       else Err EPanic).
Proof.
  split; [intros m raw; unfold d_adjust_i64, d_adjust_u64, d_adjust_i128; rewrite !d_adjust_fitted; auto|].
  intros limit dec Hl Hd. change (2^48) with ONE. unfold scale_drift_deposit_limit, drift_exp10_fx_index, of_int.
  change DRIFT_SCALED_BALANCE_DECIMALS with 9. rewrite drift_exp10_fx_same.
  destruct (dec =? 9) eqn:E1; [reflexivity|]. destruct (dec <? 9) eqn:E2.
  - rewrite exp10_table by lia. rewrite Z2Nat.id by lia. cbn [bind].
    rewrite cmul_pow10. unfold chko. destruct (in_i128 _); reflexivity.
  - destruct (dec - 9 <? 24) eqn:E3.
    + rewrite exp10_table by lia. rewrite Z2Nat.id by lia. cbn [bind].
      rewrite cdiv_pow10 by lia. pose proof (pow10_pos (dec - 9) ltac:(lia)). pose proof ONE_pos.
      rewrite Z.quot_div_nonneg by lia.
      rewrite chko_ok; [reflexivity|]. apply in_i128_iff.
      assert (0 <= limit * ONE / 10 ^ (dec - 9)) by (apply Z.div_pos; lia).
      assert (limit * ONE / 10 ^ (dec - 9) <= limit * ONE) by (apply Z.div_le_upper_bound; nia).
      rewrite U64_MAX_val in Hl. rewrite I128_MIN_val, I128_MAX_val, ONE_val in *. lia.
    + rewrite exp10_table_none by lia. reflexivity.
Qed.

(* the unchecked `+`/`-` of calculate_total_supply_i80f48 / calculate_total_liquidity never abort, the u128 ->
   I80F48 conversions are exact floors, for every field value of the declared width *)
Theorem C20_venue_supply_math_never_aborts_or_wraps :
  (forall r, kr_ok r = true ->
     k_total_supply r = Ok (k_total_exact r) /\ - 2^118 < k_total_exact r < 2^117 /\
     k_total_exact r = kr_available r * 2^48 + kr_borrowed_sf r / 2^12 - kr_prot_fees_sf r / 2^12
                       - kr_ref_fees_sf r / 2^12 - kr_pend_fees_sf r / 2^12) /\
  (forall r, sr_ok r = true ->
     s_total_liquidity r = Ok (s_total_exact r) /\ - 2^117 < s_total_exact r < 2^118 /\
     s_total_exact r = sr_available r * 2^48 + wads_fx (sr_borrowed_wads r) - wads_fx (sr_fees_wads r)) /\
  (forall raw, 0 <= raw <= U128_MAX ->
     decimal_to_i80f48 raw = Ok (wads_fx raw) /\ 0 <= wads_fx raw < 2^117 /\ wads_fx raw * 10 ^ 18 <= raw * 2^48 /\
     wads_fx raw = raw / 10 ^ 18 * 2^48 + raw mod 10 ^ 18 * 2^48 / 10 ^ 18).
Proof.
  split; [intros r H; destruct (k_total_supply_ok r H); auto|].
  split; [intros r H; destruct (s_total_liquidity_ok r H); auto|].
  intros raw H. destruct (decimal_to_i80f48_ok raw H) as (A & B & C). auto.
Qed.

Theorem C20_stale :
  (forall r slot, k_is_stale r slot = true <-> kr_slot r < slot) /\
  (forall r slot, s_is_stale r slot = true <-> sr_slot r < slot) /\
  (forall m now, 0 <= dm_last_ts m <= U64_MAX -> 0 <= now ->
     (d_is_stale m now = false <-> now <= dm_last_ts m < 2^63)).
Proof.
  split; [|split]; [unfold k_is_stale; lia | unfold s_is_stale; lia | exact d_is_stale_false_iff].
Qed.

Theorem C20_stale_venue_rejected_by_price_adapter :
  (forall r slot, kr_slot r < slot ->
     (forall f, kamino_pyth r slot f = Err (E E_ReserveStale)) /\
     (forall f, kamino_swb r slot f = Err (E E_ReserveStale))) /\
  (forall r slot, sr_slot r < slot ->
     (forall f, solend_pyth r slot f = Err (E E_SolendReserveStale)) /\
     (forall f, solend_swb r slot f = Err (E E_SolendReserveStale))) /\
  (forall m now, 0 <= dm_last_ts m <= U64_MAX -> 0 <= now -> (dm_last_ts m < now \/ 2^63 <= dm_last_ts m) ->
     (forall f, drift_pyth m now f = Err (E E_DriftSpotMarketStale)) /\
     (forall f, drift_swb m now f = Err (E E_DriftSpotMarketStale))).
Proof.
  split; [|split].
  - intros r slot H. unfold kamino_pyth, kamino_swb, k_is_stale. replace (kr_slot r <? slot) with true by lia. auto.
  - intros r slot H. unfold solend_pyth, solend_swb, s_is_stale. replace (sr_slot r <? slot) with true by lia. auto.
  - intros m now Hts Hnow H. unfold drift_pyth, drift_swb.
    destruct (d_is_stale m now) eqn:E; [auto|]. apply d_is_stale_false_iff in E; lia.
Qed.

(* `let liq_to_col_ratio = total_liq / total_col;` uses the WRAPPING operator: it cannot wrap *)
Theorem C20_pipeline_ratio_division_never_wraps :
  (forall r tl tc, kr_ok r = true -> k_scaled_supplies r = Ok (tl, tc) -> 0 < tc ->
     wdiv tl tc = Ok (Z.quot (tl * 2^48) tc) /\ I128_MIN <= Z.quot (tl * 2^48) tc <= I128_MAX) /\
  (forall r tl tc, sr_ok r = true -> s_scaled_supplies r = Ok (tl, tc) -> 0 < tc ->
     wdiv tl tc = Ok (Z.quot (tl * 2^48) tc) /\ I128_MIN <= Z.quot (tl * 2^48) tc <= I128_MAX).
Proof.
  split; intros r tl tc Hok; [exact (view_division_never_wraps _ _ _ _ tl tc (kamino_view r Hok))
                            | exact (view_division_never_wraps _ _ _ _ tl tc (solend_view r Hok))].
Qed.

(* pairs = (oracle value, adjusted value) for price/ema/conf/ema_conf (Pyth) or value/std_dev (Switchboard) *)
Theorem C20_pipeline_le_scaled_rate :
  (forall r slot pairs tl tc, kr_ok r = true -> 0 <= k_total_exact r -> kamino_arm r slot pairs ->
     k_scaled_supplies r = Ok (tl, tc) -> 0 < tc ->
     Forall (fun pp => 0 <= fst pp -> snd pp = fst pp * (tl * 2^48 / tc) / 2^48 /\ snd pp * tc <= fst pp * tl) pairs) /\
  (forall r slot pairs tl tc, sr_ok r = true -> 0 <= s_total_exact r -> solend_arm r slot pairs ->
     s_scaled_supplies r = Ok (tl, tc) -> 0 < tc ->
     Forall (fun pp => 0 <= fst pp -> snd pp = fst pp * (tl * 2^48 / tc) / 2^48 /\ snd pp * tc <= fst pp * tl) pairs).
Proof.
  split; intros r slot pairs tl tc Hok HL Harm Hs Htc;
    [apply kamino_arm_inv in Harm as [_ Harm]; destruct (view_arm_ok _ _ _ _ _ (kamino_view r Hok) HL Harm) as (tl' & tc' & Hs' & _ & HF)
    |apply solend_arm_inv in Harm as [_ Harm]; destruct (view_arm_ok _ _ _ _ _ (solend_view r Hok) HL Harm) as (tl' & tc' & Hs' & _ & HF)];
    rewrite Hs in Hs'; apply Ok_inj in Hs'; injection Hs' as <- <-;
    (eapply Forall_impl; [|exact HF]); intros pp H Hp; apply H; assumption.
Qed.

(* adjusted <= price * L / (C - 10^d / 2^48): L = total liquidity bits, C = collateral supply, d = decimals *)
Theorem C20_pipeline_overstatement_bound :
  (forall r slot pairs, kr_ok r = true -> 0 <= k_total_exact r -> kamino_arm r slot pairs ->
     Forall (fun pp => 0 <= fst pp ->
       snd pp * (kr_col_supply r * 2^48 - 10 ^ (kr_decimals r mod 2^8)) <= fst pp * k_total_exact r) pairs) /\
  (forall r slot pairs, sr_ok r = true -> 0 <= s_total_exact r -> solend_arm r slot pairs ->
     Forall (fun pp => 0 <= fst pp ->
       snd pp * (sr_col_supply r * 2^48 - 10 ^ sr_decimals r) <= fst pp * s_total_exact r) pairs).
Proof.
  split; intros r slot pairs Hok HL Harm;
    [apply kamino_arm_inv in Harm as [_ Harm]; destruct (view_arm_ok _ _ _ _ _ (kamino_view r Hok) HL Harm) as (tl & tc & _ & _ & HF)
    |apply solend_arm_inv in Harm as [_ Harm]; destruct (view_arm_ok _ _ _ _ _ (solend_view r Hok) HL Harm) as (tl & tc & _ & _ & HF)];
    (eapply Forall_impl; [|exact HF]); intros pp H Hp; apply H; assumption.
Qed.

(* the property as stated (adjusted <= price * L / C) holds when 10^d divides C * 2^48 ... *)
Theorem C20_pipeline_le_exact_rate_when_scaling_exact :
  (forall r slot pairs, kr_ok r = true -> 0 <= k_total_exact r -> kamino_arm r slot pairs ->
     (kr_col_supply r * 2^48) mod 10 ^ (kr_decimals r mod 2^8) = 0 ->
     Forall (fun pp => 0 <= fst pp -> snd pp * (kr_col_supply r * 2^48) <= fst pp * k_total_exact r) pairs) /\
  (forall r slot pairs, sr_ok r = true -> 0 <= s_total_exact r -> solend_arm r slot pairs ->
     (sr_col_supply r * 2^48) mod 10 ^ sr_decimals r = 0 ->
     Forall (fun pp => 0 <= fst pp -> snd pp * (sr_col_supply r * 2^48) <= fst pp * s_total_exact r) pairs).
Proof.
  split; intros r slot pairs Hok HL Harm Hex;
    [apply kamino_arm_inv in Harm as [_ Harm]; destruct (view_arm_ok _ _ _ _ _ (kamino_view r Hok) HL Harm) as (tl & tc & _ & _ & HF)
    |apply solend_arm_inv in Harm as [_ Harm]; destruct (view_arm_ok _ _ _ _ _ (solend_view r Hok) HL Harm) as (tl & tc & _ & _ & HF)];
    (eapply Forall_impl; [|exact HF]); intros pp H Hp; apply H; assumption.
Qed.

(* ... and is FALSE in general (known finding `adjusted-price-exceeds-exact-rate:scaled-supply-rounding`):
   6 liquidity units, 3 collateral units (exact rate 2), 9 decimals, price 10^12 -> 2000001184239 *)
Theorem C20_pipeline_le_exact_rate_refuted :
  exists r slot f f',
    kr_ok r = true /\ kamino_pyth r slot f = Ok f' /\ 0 <= k_total_exact r /\ 0 <= py_price f /\
    k_total_supply r = Ok (k_total_exact r) /\
    py_price f' * (kr_col_supply r * 2^48) > py_price f * k_total_exact r /\
    py_price f' = 2000001184239 /\ py_price f = 1000000000000 /\
    k_total_exact r = 6 * 2^48 /\ kr_col_supply r = 3.
Proof.
  exists (mkKR 10 6 0 0 0 0 9 3), 10, (mkPyth 1000000000000 1000000000000 5 5), (mkPyth 2000001184239 2000001184239 10 10).
  vm_compute. repeat split; congruence.
Qed.

Theorem C20_drift_pipeline_le_exact_rate : forall m now pairs, drift_arm m now pairs ->
  d_is_stale m now = false /\
  Forall (fun pp => snd pp = fst pp * dm_cum_interest m / 10 ^ 10 /\
                    snd pp * 10 ^ 10 <= fst pp * dm_cum_interest m) pairs.
Proof.
  intros m now pairs H. apply drift_arm_scaled in H as [Hs H]. split; [assumption|].
  eapply Forall_impl; [|exact H]. intros pp ->. split; [reflexivity | apply div_mul_floor; lia].
Qed.

(* the confidence is scaled with the price.
   Collateral is valued at the LOW-biased price (price - 2.12 conf): an adjusted confidence that shrank more than
   the price would push that value above (price - 2.12 conf) x rate.  Every Pyth arm scales the (spot and EMA)
   confidence by the same rate as the corresponding price:  conf' * price - conf * price' > - price
   (i.e. conf'/price' >= conf/price up to the one unit each floor may lose). *)
Theorem C20_confidence_scaled_with_price : forall f f',
  ((exists r slot, kamino_pyth r slot f = Ok f') \/ (exists r slot, solend_pyth r slot f = Ok f') \/
   (exists m now, drift_pyth m now f = Ok f')) ->
  (0 < py_price f -> 0 <= py_conf f -> py_conf f' * py_price f - py_conf f * py_price f' > - py_price f) /\
  (0 < py_ema f -> 0 <= py_ema_conf f -> py_ema_conf f' * py_ema f - py_ema_conf f * py_ema f' > - py_ema f).
Proof.
  intros f f' H.
  assert (exists r q, 0 < q /\ scaled_pairs r q (pyth_pairs f f')) as (r & q & Hq & Hs).
  { destruct H as [(r & slot & H)|[(r & slot & H)|(m & now & H)]].
    - apply (ratio_arm_scaled (k_scaled_supplies r)), (kamino_arm_inv r slot). left; eauto.
    - apply (ratio_arm_scaled (s_scaled_supplies r)), (solend_arm_inv r slot). left; eauto.
    - exists (dm_cum_interest m), (10 ^ 10). split; [lia|]. apply (drift_arm_scaled m now). left; eauto. }
  exact (scaled_pairs_conf r q f f' Hq Hs).
Qed.

(* Non-vacuity: a Kamino reserve (1.05 liquidity per collateral, 6 decimals), a Solend reserve and a Drift market on
   which conversions, round trips and all six adapter arms succeed, and inputs on which they fail closed *)
Definition ex_k : kreserve := mkKR 1000 600000000000 (450000000000 * 2^60) (1000000 * 2^60) 0 0 6 1000000000000.
Definition ex_s : sreserve := mkSR 1000 6 600000000000 (450000000000 * 10^18) (1000000 * 10^18) 1000000000000.
Definition ex_d : dmarket := mkDM 10500000000 1700000000 6.
Example C20_nonvacuous :
  kr_ok ex_k = true /\ sr_ok ex_s = true /\ dm_ok ex_d = true /\
  k_liquidity_to_collateral ex_k 1000000 = Ok 952381 /\ k_collateral_to_liquidity ex_k 952381 = Ok 999999 /\
  s_liquidity_to_collateral ex_s 1000000 = Ok 952381 /\ s_collateral_to_liquidity ex_s 952381 = Ok 999999 /\
  d_scaled_balance_increment ex_d 1000000 = Ok 952380952 /\ d_scaled_balance_decrement ex_d 1000000 = Ok 952380953 /\
  d_withdraw_token_amount ex_d 952380952 = Ok 999999 /\
  is_ok (kamino_pyth ex_k 1000 (mkPyth 100000000 100000000 50000 50000)) = true /\
  is_ok (kamino_swb ex_k 1000 (mkSwb (10^20) (10^17))) = true /\
  is_ok (solend_pyth ex_s 1000 (mkPyth 100000000 100000000 50000 50000)) = true /\
  is_ok (solend_swb ex_s 1000 (mkSwb (10^20) (10^17))) = true /\
  drift_pyth ex_d 1700000000 (mkPyth 100000000 100000000 50000 50000) = Ok (mkPyth 105000000 105000000 52500 52500) /\
  is_ok (drift_swb ex_d 1700000000 (mkSwb (10^20) (10^17))) = true /\
  adjust_u64 U64_MAX (2 * 2^48) = Err ENone /\ adjust_i64 5 (3 * 2^47) = Ok 7 /\
  collateral_to_liquidity_from_scaled 5 7 0 = Err ENone /\
  kamino_pyth ex_k 1001 (mkPyth 1 1 0 0) = Err (E E_ReserveStale).
Proof.
  (* the scaled supplies of a reserve are evaluated once, not once in each conversion and arm that uses them *)
  let v := eval lazy in (k_scaled_supplies ex_k) in assert (Hk : k_scaled_supplies ex_k = v) by reflexivity.
  let v := eval lazy in (s_scaled_supplies ex_s) in assert (Hs : s_scaled_supplies ex_s = v) by reflexivity.
  unfold k_liquidity_to_collateral, k_collateral_to_liquidity, kamino_pyth, kamino_swb,
         s_liquidity_to_collateral, s_collateral_to_liquidity, solend_pyth, solend_swb.
  rewrite Hk, Hs. vm_compute. repeat split; reflexivity.
Qed.

Print Assumptions C20_roundtrip_scaled.
Print Assumptions C20_roundtrip_kamino.
Print Assumptions C20_roundtrip_solend.
Print Assumptions C20_roundtrip_solend_rate.
Print Assumptions C20_conversion_never_overstates.
Print Assumptions C20_drift_decrement_ge_increment.
Print Assumptions C20_drift_withdraw_of_increment_le.
Print Assumptions C20_drift_conversions_exact.
Print Assumptions C20_adjust_exact_floor.
Print Assumptions C20_adjust_le_price_times_ratio.
Print Assumptions C20_adjust_monotone.
Print Assumptions C20_ratio_le_exact.
Print Assumptions C20_drift_adjust_le_and_monotone.
Print Assumptions C20_fail_closed_adjust.
Print Assumptions C20_fail_closed_conversions.
Print Assumptions C20_fail_closed_drift.
Print Assumptions C20_venue_supply_math_never_aborts_or_wraps.
Print Assumptions C20_stale.
Print Assumptions C20_stale_venue_rejected_by_price_adapter.
Print Assumptions C20_pipeline_ratio_division_never_wraps.
Print Assumptions C20_pipeline_le_scaled_rate.
Print Assumptions C20_pipeline_overstatement_bound.
Print Assumptions C20_pipeline_le_exact_rate_when_scaling_exact.
Print Assumptions C20_pipeline_le_exact_rate_refuted.
Print Assumptions C20_drift_pipeline_le_exact_rate.
Print Assumptions C20_confidence_scaled_with_price.
