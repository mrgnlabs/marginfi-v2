(* C01 — Bank solvency: vault tokens cover net depositor claims and accrued fees.
   Model: coq/model/Handlers.v — the instruction handlers deposit / withdraw(all) / borrow / repay(all) /
   close_balance / liquidate / handle_bankruptcy / accrue / collect_fees over a world of banks (each with
   liquidity / insurance / fee vault balances and Token-2022 transfer-fee settings), accounts, user token
   balances, oracle feeds and a clock.
     NAV b  = total_asset_shares*asset_share_value - total_liability_shares*liability_share_value
              + (insurance + group + program fees outstanding) * 2^48                 (scale 2^96)
     gap hb = liquidity_vault * 2^96 - NAV (bank of hb)        (>= 0 means: the vault covers net claims + fees)
   The theorems bound how far ONE successful instruction can lower the gap of ANY bank (step_slack, derived
   from the magnitudes involved, see DESIGN.md §7 C01 for its size: a few units of 2^-48 native token per
   million tokens of liabilities), for all worlds satisfying HOk, all instructions, all amounts, all prices,
   all clock values, SPL and Token-2022 mints with any transfer fee; and lift it to histories of any length. *)
Require Import Base Constants Fixed Curve Bank BankOps Risk TransferFee Handlers.
Require Import AccrualLemmas SolvencyLemmas SolvencyHandlers SolvencyWorld HandlerWorld WorldCheck WorldCheckLemmas.
Require Import PrivGen Deleverage PurgeLedger DeleverageWorld.
Local Open Scope Z_scope.

(* one successful instruction: for every bank, the gap falls by at most the rounding allowance of that
   instruction — unless it is one of the two sanctioned exceptions (the risk admin's token-less repay_all on a
   bank flagged TOKENLESS_REPAYMENTS_ALLOWED; a bankruptcy that wipes the bank out and kills it) *)
Theorem C01_step :
  forall w o w', HOk w -> hop_ok o -> hstep w o = Ok w' ->
  forall b hb, nth_bank w b = Ok hb ->
  exists hb', nth_bank w' b = Ok hb' /\
    (gap hb - step_slack w o b hb <= gap hb' \/ sanctioned w o b hb hb').
Proof. exact hstep_gap. Qed.

(* the allowance, spelled out (scale 2^96; b_tls*b_lsv/2^48 is the liability amount in I80F48 bits):
   deposit / close_balance / accrue / bankruptcy : the accrual allowance only;
   withdraw / borrow / each liquidation leg pair : + one ulp of each share value;
   repay_all : + one ulp (2^-48) of a native unit; collect_fees, clock, price changes : 0 *)
Theorem C01_allowance_is :
  forall w o b hb,
  step_slack w o b hb =
  match o with
  | HDeposit _ b' _ _ | HCloseBalance _ b' | HAccrue b' | HBankruptcy _ b' => if (b' =? b)%nat then acc_slack w hb else 0
  | HWithdraw _ b' _ _ | HBorrow _ b' _ => if (b' =? b)%nat then acc_slack w hb + sv_slack w hb else 0
  | HRepay _ b' _ all => if (b' =? b)%nat then acc_slack w hb + (if all then ONE else 0) else 0
  | HLiquidate _ _ ab lb _ => if (ab =? b)%nat || (lb =? b)%nat then acc_slack w hb + sv_slack w hb else 0
  | HClock _ | HCollectFees _ | HSetPrice _ _ => 0
  end.
Proof. intros. reflexivity. Qed.

(* the accrual allowance: interest credited to depositors plus fees never exceeds interest charged to
   borrowers by more than  L + total_liability_shares + asv'/asv (as an I80F48 number, i.e. times 2^48) + 3  units of 2^-96 *)
Theorem C01_accrual_allowance :
  forall b pf now b', wf_bank b -> 0 < b_asv b -> valid_curve b -> accrue_interest b pf now = Ok b' ->
  NAV b' - NAV b <= b_tls b * b_lsv b / ONE + b_tls b + (b_asv b' * ONE / Z.max 1 (b_asv b) + 2) + 1 /\
  wf_bank b' /\ 0 < b_asv b' /\ valid_curve b' /\ b_op_state b' = b_op_state b.
Proof. exact NAV_accrue. Qed.

(* well-formedness is an invariant: HOk2 = program fee rate in [0,1] + every bank well-formed (share values > 0,
   valid seven-point curve, fee buckets representable, transfer-fee bps <= 10000) + the ledger invariant of C02 at
   instruction level (bank totals cover the sum of all positions).  Every successful instruction preserves it,
   unless it is a bankruptcy that wipes the bank out (kills it). *)
Theorem C01_wellformedness_preserved :
  forall w o w', HOk2 w -> hop_ok2 o -> hstep w o = Ok w' ->
  HOk2 w' \/ exists a b hb', o = HBankruptcy a b /\ nth_bank w' b = Ok hb' /\ b_op_state (hb_b hb') = OP_KILLED.
Proof. exact hstep_HOk2. Qed.

Theorem C01_HOk2_implies_HOk : forall w, HOk2 w -> HOk w.
Proof. exact HOk2_HOk. Qed.

(* the hypothesis HOk2 is established by an executable check (extracted and evaluated on the initial world of every
   generated correspondence case: the evidence reports how many satisfy it) *)
Theorem C01_hypotheses_checkable : forall w, hok2b w = true -> HOk2 w.
Proof. exact hok2b_sound. Qed.

(* histories of any length (failed instructions roll back): from a well-formed world, for any sequence of
   instructions with u64 amounts in which no bank is wiped out, the gap of every bank is at
   least the initial gap minus the sum of the per-instruction allowances — unless a sanctioned token-less write-off hit
   that bank.  No assumption on intermediate states. *)
Theorem C01_history :
  forall ops w b hb, HOk2 w -> Forall hop_ok2 ops -> run_no_wipeout w ops -> nth_bank w b = Ok hb ->
  exists hb', nth_bank (hrun w ops) b = Ok hb' /\ (gap hb - run_slack w ops b <= gap hb' \/ run_exception w ops b).
Proof.
  intros ops w b hb H2 Hops Hnw Hb. destruct (hrun_keeps_HOk2 _ _ H2 Hops Hnw) as (_ & Hrun). exact (hrun_gap ops w b hb Hrun Hb).
Qed.

(* the same with the well-formedness of every visited state as an explicit hypothesis instead (covers histories
   with wipe-outs, for the banks that stay alive) *)
Theorem C01_history_given_wellformed_states :
  forall ops w b hb, run_ok w ops -> nth_bank w b = Ok hb ->
  exists hb', nth_bank (hrun w ops) b = Ok hb' /\ (gap hb - run_slack w ops b <= gap hb' \/ run_exception w ops b).
Proof. exact hrun_gap. Qed.

(* non-vacuity: a concrete well-formed world in which a deposit succeeds and the gap is preserved *)
Definition ex_bank : bank :=
  mkBank ONE ONE (1000000 * ONE) (500000 * ONE) 0 0 0 1000 U64_MAX U64_MAX 0 6 0 0 0 0 0 1
         (mkIR 0 0 0 (ONE / 100) (ONE / 10) (ONE / 100) (ONE / 10) 0 429496729 [mkRP 2147483648 214748364] 1).
Definition ex_hb : hbank :=
  mkHB ex_bank (mkRC ONE ONE ONE ONE 0 0 0 []) (fixed_feed ONE) 600000 0 0 0 false 0 0 0.
Definition ex_world : hworld :=
  mkHW [ex_hb] [mkHA la_empty 0] 1000 (mkPF true (ONE / 100) (ONE / 20)) [[5000]] false.
Example C01_nonvacuous :
  match hstep ex_world (HDeposit 0 0 1000 false) with
  | Ok w' => match nth_bank w' 0 with Ok hb' => gap hb' - gap ex_hb | Err _ => -1 end
  | Err _ => -1 end = 0.
Proof. vm_compute. reflexivity. Qed.

Example C01_HOk2_example : HOk2 ex_world /\ hop_ok2 (HDeposit 0 0 1000 false).
Proof. split; [apply hok2b_sound; vm_compute; reflexivity|cbn; lia]. Qed.

(* Outside the instruction set of the history theorem: lending_account_purge_delev_balance (risk admin, sunset bank).
   No token moves and the purged deposits stop being an obligation, so the bank's gap GROWS by exactly the purged asset
   shares times the asset share value; no other bank changes. (Ledger: C02_purge_keeps_ledger.) *)
Theorem C01_purge_gap :
  forall w a b signs w',
  HLedger w -> dv_purge w a b signs = Ok w' ->
  exists hb hb' ac i bl,
    nth_bank w b = Ok hb /\ nth_bank w' b = Ok hb' /\ nth_acct w a = Ok ac /\ nth_res i (ha_la ac) = Ok bl /\
    gap hb' = gap hb + bl_a bl * b_asv (hb_b hb) /\ gap hb <= gap hb' /\
    (forall k, k <> b -> nth_bank w' k = nth_bank w k).
Proof. exact purge_gap. Qed.

(* Forced deleverage (risk admin): the withdrawal and the repayment inside start_deleverage .. end_deleverage obey the
   same per-instruction gap bounds as the ordinary withdraw / repay (the only sanctioned drop is the token-less write-off
   of a sunset bank), and the whole transaction keeps the world well-formed, so the history theorem's hypotheses hold
   again after it *)
Theorem C01_deleverage_withdraw_gap :
  forall w c a r b amount all w' c',
  0 <= amount -> HOk2 w -> dv_withdraw w c a r b amount all = Ok (w', c') ->
  exists hb hb', nth_bank w b = Ok hb /\ nth_bank w' b = Ok hb' /\
    gap hb - acc_slack w hb - sv_slack w hb <= gap hb' /\
    (forall k, k <> b -> nth_bank w' k = nth_bank w k).
Proof. exact dv_withdraw_gap. Qed.

Theorem C01_deleverage_repay_gap :
  forall w a r b amount all w',
  0 <= amount -> HOk2 w -> dv_repay w a r b amount all = Ok w' ->
  exists hb hb', nth_bank w b = Ok hb /\ nth_bank w' b = Ok hb' /\
    (gap hb - acc_slack w hb - (if all then ONE else 0) <= gap hb' \/ tokenless_writeoff w hb all) /\
    (forall k, k <> b -> nth_bank w' k = nth_bank w k).
Proof. exact dv_repay_gap. Qed.

Theorem C01_deleverage_tx_keeps_world :
  forall w c a r signs steps w' c',
  Forall dstep_ok steps -> HOk2 w -> dv_tx w c a r signs steps = Ok (w', c') -> HOk2 w'.
Proof. exact dv_tx_keeps_world. Qed.

Print Assumptions C01_step.
Print Assumptions C01_allowance_is.
Print Assumptions C01_accrual_allowance.
Print Assumptions C01_wellformedness_preserved.
Print Assumptions C01_HOk2_implies_HOk.
Print Assumptions C01_hypotheses_checkable.
Print Assumptions C01_history.
Print Assumptions C01_history_given_wellformed_states.
Print Assumptions C01_purge_gap.
Print Assumptions C01_deleverage_withdraw_gap.
Print Assumptions C01_deleverage_repay_gap.
Print Assumptions C01_deleverage_tx_keeps_world.
