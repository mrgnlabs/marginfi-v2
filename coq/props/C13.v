(* C13 — Accepted configurations are coherent and always leave a liquidation buffer.
   Statements, derived from the lemmas of lemmas/ConfigLemmas.v and lemmas/ConfigHealthLemmas.v.  Numbers are raw
   I80F48 bits: ONE = 2^48 is 1.0, 2 * ONE is 2.0.  Quantification: every configuration record / option argument /
   e-mode entry list of any length over all of Z (hence all i128 / u64 / u16 bit patterns), every sequence of
   configuration requests, every portfolio of any length.
   Valid g b  :=  BankConfig::validate (cb_cfg b) = Ok  /\  validate_entries_with_liability_weights
                  (cb_emode b) against b's liability weights and the group's caps g = Ok  /\  the stored
                  entries are sorted by tag (what lending_pool_configure_bank_emode stores). *)
Require Import Base Constants ConfigGen Fixed Curve Config Emode ConfigPaths ConfigHealth.
Require Import FixedLemmas ConfigLemmas ConfigHealthLemmas.
Local Open Scope Z_scope.

(* validators: Ok implies every stated inequality *)
Theorem C13_validate_sound :
  forall c, bc_validate c = Ok tt ->
  0 <= bc_awi c <= ONE /\ bc_awi c <= bc_awm c <= 2 * ONE /\
  ONE <= bc_lwm c <= bc_lwi c /\
  (bc_risk_tier c = RISK_ISOLATED -> bc_awi c = 0 /\ bc_awm c = 0) /\
  10 <= bc_max_age c /\
  ir_validate (bc_ir c) = Ok tt.
Proof. intros c [(A & B & C & D & E) F]%bc_validate_spec. auto 6. Qed.

Theorem C13_staked_validate_sound :
  forall s, ss_validate s = Ok tt ->
  0 <= ss_awi s <= ONE /\ ss_awi s <= ss_awm s <= 2 * ONE /\
  (ss_risk_tier s = RISK_ISOLATED -> ss_awi s = 0 /\ ss_awm s = 0).
Proof. intros s. apply ss_validate_spec. Qed.

(* entry_ok lwi lwm capi capm e  :=  e is empty (tag 0)  \/
     0 <= init <= maint  /\  0 < lwi  /\  0 < lwm  /\  init < lwi  /\  maint < lwm  /\
     lev_code init lwi <= capi  /\  lev_code maint lwm <= capm      (lev_code cw lw = ONE*ONE / (ONE - cw*ONE/lw),
                                                                     the leverage exactly as the code computes it)
     /\  ONE*ONE*lwi < (capi+1) * (ONE*(lwi-init) + lwi)  /\  the same for maint    (exact-integer consequence) *)
Theorem C13_emode_validate_sound :
  forall es c ci cm, em_validate es c ci cm = Ok tt ->
  exists capi capm,
    u32_to_basis ci = Ok capi /\ u32_to_basis cm = Ok capm /\
    Forall (entry_ok (bc_lwi c) (bc_lwm c) capi capm) (es_entries es) /\
    no_adjacent_dup (nonempty_tags (es_entries es)).
Proof. exact em_validate_sound. Qed.

Theorem C13_emode_sorted_no_duplicates :
  forall es c ci cm, em_validate es c ci cm = Ok tt -> es_sorted (es_entries es) ->
  NoDup (nonempty_tags (es_entries es)).
Proof.
  intros es c ci cm (capi & capm & _ & _ & _ & Hn)%em_validate_sound Hs.
  apply sorted_no_adjacent_nodup; [apply sorted_filter_tags; exact Hs | exact Hn].
Qed.

Theorem C13_add_bank_valid :
  forall g cc b, ix_add_bank cc = Ok b -> Valid g b.
Proof.
  unfold ix_add_bank. cbv zeta. intros g cc b H. apply bind_unit in H as [_ H]. apply bind_unit in H as [Hv <-%Ok_inj].
  split; [exact Hv | apply emode_valid_zeroed].
Qed.

Theorem C13_add_bank_permissionless_valid :
  forall g s oracle_check b, ix_add_bank_permissionless s oracle_check = Ok b -> Valid g b.
Proof.
  unfold ix_add_bank_permissionless. cbv zeta. intros g s oc b H. apply bind_unit in H as [Hv H]. apply bind_unit in H as [_ <-%Ok_inj].
  split; [exact Hv | apply emode_valid_zeroed].
Qed.

(* full configure, interest-only, limits-only, e-mode configure, e-mode clone, staked-settings propagation,
   curve migration.  req_ok r is True for every request except clone, where it asks that the source
   bank is itself Valid (for the caps in force when its entries were written): all banks of a group are
   in the invariant together. *)
Theorem C13_paths_preserve_valid :
  forall g b r b', req_ok r -> apply_req g b r = Ok b' -> Valid g b -> Valid g b'.
Proof.
  (* a request either keeps e-mode settings and liability weights (Valid_frame) or runs em_validate on
     what it stores; what it stores is what was there, a sorted list, or another bank's stored list *)
  intros g b r b' Hr H Hv. pose proof Hv as (Hc & _ & Hs). apply apply_req_inv in H.
  destruct r as [o|io|d bo l|now tag es|src|s oc|].
  - destruct (cb_get_flag b FREEZE_SETTINGS).
    + subst b'. apply (Valid_frame g b); try reflexivity; assumption.
    + destruct H as [H He]. apply bank_configure_inv in H as (Hc' & Hem & _).
      split; [exact Hc'|]. split; [exact He|]. rewrite Hem. exact Hs.
  - destruct (cb_get_flag b FREEZE_SETTINGS); [subst b'; exact Hv|].
    destruct H as (ir & orig & Hi & ->). apply (Valid_frame g b); try reflexivity; [exact Hv|].
    apply bc_validate_spec in Hc as [Hw _]. apply bc_validate_spec. split; [exact Hw | exact Hi].
  - destruct H as (l' & -> & _). apply (Valid_frame g b); try reflexivity; assumption.
  - destruct H as [He ->]. split; [exact Hc|]. split; [exact He | apply ee_sort_sorted].
  - destruct H as [He ->], Hr as (g' & _ & _ & Hs'). split; [exact Hc|]. split; assumption.
  - destruct H as (c & Hc' & -> & Hi & Hm & _). apply (Valid_frame g b); assumption || reflexivity.
  - destruct H as [Hc' [->|(ir & ->)]]; [exact Hv|]. apply (Valid_frame g b); try reflexivity; assumption.
Qed.

Theorem C13_sequences_preserve_valid :
  forall g rs b, Forall req_ok rs -> Valid g b -> Valid g (apply_reqs g b rs).
Proof.
  intros g rs. induction rs as [|r rest IH]; cbn [apply_reqs]; intros b Hn Hv; [exact Hv|].
  apply Forall_cons_iff in Hn as [Hr Hrest]. apply IH; [exact Hrest|].
  destruct (apply_req g b r) as [b1|e] eqn:E; [|exact Hv].
  eapply C13_paths_preserve_valid; eassumption.
Qed.

(* e-mode clone (repaired by /repo f3ce7b8f, former finding emode-clone-unvalidated): the copied entries
   are accepted only if they pass the DESTINATION's validation *)
Theorem C13_clone_emode_valid :
  forall g src dst dst',
  ix_clone_emode g src dst = Ok dst' -> cfg_valid (cb_cfg dst) ->
  es_sorted (es_entries (cb_emode src)) -> Valid g dst'.
Proof.
  intros g src dst dst' [He ->]%(apply_req_inv g dst (RCloneFrom src)) Hc Hs.
  split; [exact Hc | split; [exact He | exact Hs]].
Qed.

(* changing liability weights after e-mode entries were set: an unfrozen configure re-runs the entry
   validation against the new weights *)
Theorem C13_configure_revalidates_emode :
  forall g b o b', ix_configure_bank g b o = Ok b' -> cb_get_flag b FREEZE_SETTINGS = false ->
  em_validate (cb_emode b') (cb_cfg b') (cap_init g) (cap_maint g) = Ok tt /\ cb_emode b' = cb_emode b.
Proof.
  intros g b o b' H%(apply_req_inv g b (RConfigure o)) Hf. cbv beta iota in H. rewrite Hf in H. destruct H as [H He].
  apply bank_configure_inv in H as (_ & Hem & _). split; assumption.
Qed.

Theorem C13_no_request_kills :
  forall g b r b', apply_req g b r = Ok b' -> op_of b <> OP_KILLED -> op_of b' <> OP_KILLED.
Proof. intros g b r b' [[->|[_ H]] _]%req_frame Hk; assumption. Qed.

(* (repaired by /repo d85d2d97, former finding killed-bank-revived) no admin request takes a bank out of
   the killed state, neither one request nor any sequence *)
Theorem C13_killed_forever :
  forall g b r b', apply_req g b r = Ok b' -> op_of b = OP_KILLED -> op_of b' = OP_KILLED.
Proof. intros g b r b' [[->|[H _]] _]%req_frame Hk; [exact Hk | contradiction]. Qed.

Theorem C13_killed_forever_sequences :
  forall g rs b, op_of b = OP_KILLED -> op_of (apply_reqs g b rs) = OP_KILLED.
Proof. exact killed_forever_seq. Qed.

Theorem C13_reconcile_keeps_init_le_maint :
  forall cfgs r, Forall (Forall entry_le) cfgs -> reconcile_emode_configs cfgs = Ok r -> Forall entry_le r.
Proof. exact reconcile_keeps_le. Qed.

(* pos_ok p := 0 <= amount, 0 <= price, 0 < scale, BankConfig::validate (bank of p) = Ok, discount in [0,1].
   For ANY reconciled e-mode config whose non-empty entries have init <= maint: position by position
   the Initial requirement is the stricter one, so passing it implies passing Maintenance. *)
Theorem C13_buffer :
  forall recon l ai li am lm,
  Forall pos_ok l -> Forall entry_le recon ->
  health_components CRInitial recon l (0, 0) = Ok (ai, li) ->
  health_components CRMaint recon l (0, 0) = Ok (am, lm) ->
  ai <= am /\ lm <= li /\ (li <= ai -> lm <= am).
Proof. exact buffer. Qed.

Theorem C13_buffer_with_emode :
  forall l ai li am lm,
  Forall pos_ok l -> Forall pos_emode_ok l ->
  account_health CRInitial l = Ok (ai, li) ->
  account_health CRMaint l = Ok (am, lm) ->
  li <= ai -> lm <= am.
Proof.
  unfold account_health. intros l ai li am lm Hl He H1 H2.
  apply bind_ok in H1 as (recon & Hrec & H1). rewrite Hrec in H2.
  apply (buffer recon l ai li am lm Hl (account_recon_le l recon He Hrec) H1 H2).
Qed.

Theorem C13_buffer_without_emode :
  forall l ai li am lm,
  Forall pos_ok l ->
  account_health_no_emode CRInitial l = Ok (ai, li) ->
  account_health_no_emode CRMaint l = Ok (am, lm) ->
  li <= ai -> lm <= am.
Proof. intros l ai li am lm Hl H1 H2. apply (buffer [] l ai li am lm Hl (Forall_nil _) H1 H2). Qed.

(* the discount of maybe_get_asset_weight_init_discount is always a factor in [0,1] (hypothesis of pos_ok) *)
Theorem C13_init_discount_in_unit_interval :
  forall limit total price scale d,
  0 <= limit -> init_discount limit total price scale = Ok (Some d) -> 0 <= d <= ONE.
Proof.
  intros limit total price scale d Hl. unfold init_discount. destruct (limit =? TOTAL_ASSET_VALUE_INIT_LIMIT_INACTIVE); [discriminate|].
  intros H. apply bind_ok in H as (tv & _ & H).
  destruct (Z.ltb_spec (of_int limit) tv) as [E|_]; [|discriminate].
  apply bind_ok in H as (d' & Hd & H). apply Ok_inj in H. injection H as <-.
  pose proof ONE_pos as HO. unfold of_int in *.
  apply ok_or_inv, cdiv_inv_nonneg in Hd as [-> Hd]; [| lia | lia].
  split; [lia|]. apply Z.div_le_upper_bound; nia.
Qed.

(* Non-vacuity: a concrete valid bank with an accepted e-mode entry at 8x / 16x leverage against the 15x / 20x
   caps, a portfolio on which both health evaluations succeed with the e-mode weight in force, rejected
   configurations, and the regression witnesses of the two repaired findings *)
Definition ex_cfg : bank_cfg := w_cfg ONE ONE OP_OPERATIONAL.
Definition ex_entries : list emode_entry := [mkEE 7 0 (ONE - ONE / 8) (ONE - ONE / 16)].
Definition ex_lender : cbank := mkCBank ex_cfg CLOSE_ENABLED_FLAG (mkES 0 0 1 ex_entries).
Definition ex_coll : cbank := mkCBank ex_cfg CLOSE_ENABLED_FLAG (mkES 7 0 0 []).
Definition ex_portfolio : list position :=
  [mkPos false (1000 * ONE) ONE ONE ex_coll None; mkPos true (800 * ONE) ONE ONE ex_lender None].
Example C13_nonvacuous :
  Valid w_caps ex_lender /\
  account_health CRInitial ex_portfolio = Ok (875 * ONE, 800 * ONE) /\
  account_health CRMaint ex_portfolio = Ok (1875 * ONE / 2, 800 * ONE) /\
  account_health_no_emode CRInitial ex_portfolio = Ok (500 * ONE, 800 * ONE) /\
  is_ok (bc_validate (w_cfg ONE (ONE + 1) OP_OPERATIONAL)) = false /\
  is_ok (ix_configure_bank w_caps ex_lender
           (mkCO None None None None None None (Some OP_KILLED) None None None None None None None None None)) = false /\
  (* the two repaired defects: reviving a killed bank and cloning entries that do not fit the destination fail *)
  Valid w_caps w_killed /\ ix_configure_bank w_caps w_killed w_revive_opt = Err EBankKilled /\
  Valid w_caps w_src /\ ix_clone_emode w_caps w_src w_dst = Err EBadEmodeConfig /\
  is_ok (ix_clone_emode w_caps w_src w_src) = true.
Proof.
  assert (Hsrc : em_validate (cb_emode w_src) (cb_cfg w_src) (cap_init w_caps) (cap_maint w_caps) = Ok tt)
    by (vm_compute; reflexivity).
  split; [split; [vm_compute; reflexivity | split; [vm_compute; reflexivity | repeat constructor]] |].
  do 5 (split; [vm_compute; reflexivity|]).
  split; [split; [vm_compute; reflexivity | apply emode_valid_zeroed] |]. split; [vm_compute; reflexivity|].
  split; [split; [vm_compute; reflexivity | split; [exact Hsrc | apply ee_sort_sorted]] |].
  split; [vm_compute; reflexivity|].
  (* cloning w_src onto itself runs the validation just evaluated *)
  unfold ix_clone_emode. rewrite Hsrc. reflexivity.
Qed.

Print Assumptions C13_validate_sound.
Print Assumptions C13_staked_validate_sound.
Print Assumptions C13_emode_validate_sound.
Print Assumptions C13_emode_sorted_no_duplicates.
Print Assumptions C13_add_bank_valid.
Print Assumptions C13_add_bank_permissionless_valid.
Print Assumptions C13_paths_preserve_valid.
Print Assumptions C13_sequences_preserve_valid.
Print Assumptions C13_clone_emode_valid.
Print Assumptions C13_configure_revalidates_emode.
Print Assumptions C13_no_request_kills.
Print Assumptions C13_killed_forever.
Print Assumptions C13_killed_forever_sequences.
Print Assumptions C13_reconcile_keeps_init_le_maint.
Print Assumptions C13_buffer.
Print Assumptions C13_buffer_with_emode.
Print Assumptions C13_buffer_without_emode.
Print Assumptions C13_init_discount_in_unit_interval.
