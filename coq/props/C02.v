(* C02 — Ledger consistency: bank totals are at least the sum of all positions; the excess is only
   the sub-0.0001 dust abandoned when a position is closed; every other operation moves a total by
   exactly the change of the positions.
   Model: the level-B world of coq/model/BankOps.v — any number of banks and lending accounts; one
   operation = the call sequence an instruction handler makes on BankAccountWrapper (find /
   find_or_create, then deposit / withdraw / borrow / repay / withdraw_all / repay_all / close /
   liquidation legs / claim / settle), plus accrue, socialise-loss, sort, clock.
   wsum (ca k) accts = sum over every account and slot of the asset shares recorded for bank key k;
   exA / exL = bank total minus that sum. Quantification: every world satisfying the invariant,
   every operation with a non-negative amount, every sequence of operations of any length. *)
Require Import Base Constants Fixed Curve Bank BankOps Risk TransferFee Handlers FixedLemmas BankLemmas HandlerLemmas LedgerLemmas HandlerWorld.
Require Import TxConstants AcctLifecycle LifecycleLedger.
Require Import PrivGen Deleverage PurgeLedger DeleverageWorld.
Local Open Scope Z_scope.

(* the invariant holds after every sequence of operations (failed operations roll back) *)
Theorem C02_totals_cover_positions :
  forall ops w, Ledger w -> Forall bop_ok ops -> Ledger (brun w ops).
Proof.
  induction ops as [|o ops IH]; intros w L Hok; cbn [brun fold_left]; [exact L|].
  inversion Hok as [|? ? Ho Hops]; subst. apply IH; [|exact Hops].
  unfold bstep_total. destruct (bstep w o) as [[w' r]|e] eqn:E; [|exact L].
  eapply bstep_ledger; eauto.
Qed.

(* what Ledger says, spelled out *)
Theorem C02_ledger_meaning :
  forall w, Ledger w -> forall k bk, bank_of w k = Some bk ->
  wsum (ca (bank_pk k)) (bw_accts w) <= b_tas bk /\ wsum (cl (bank_pk k)) (bw_accts w) <= b_tls bk.
Proof. exact lg_tot. Qed.

(* one successful operation: operations that do not close a position leave the excess of EVERY bank
   unchanged (total delta = position delta, exactly); withdraw_all / repay_all / close_balance add
   to the excess of their bank the abandoned shares da, dl >= 0, each worth < 0.0001 native unit *)
Theorem C02_exact_deltas_and_dust :
  forall w o w' r, Ledger w -> bop_ok o -> bstep w o = Ok (w', r) ->
  Ledger w' /\
  match closes o with
  | None => forall k, exA w' k = exA w k /\ exL w' k = exL w k
  | Some b => exists bk da dl, bank_of w b = Some bk /\
       (da * b_asv bk / ONE < ZERO_AMOUNT_THRESHOLD /\ dl * b_lsv bk / ONE < ZERO_AMOUNT_THRESHOLD) /\
       0 <= da /\ 0 <= dl /\
       forall k, exA w' k = exA w k + (if (b =? k)%nat then da else 0) /\
                 exL w' k = exL w k + (if (b =? k)%nat then dl else 0)
  end.
Proof. exact bstep_ledger. Qed.

(* close_bank requires zero totals: then no account holds any shares in that bank *)
Theorem C02_zero_totals_no_positions :
  forall w k bk, Ledger w -> bank_of w k = Some bk -> b_tas bk = 0 -> b_tls bk = 0 ->
  forall la bl, In la (bw_accts w) -> In bl la -> bl_active bl = true -> bl_bank bl = bank_pk k ->
  bl_a bl = 0 /\ bl_l bl = 0.
Proof.
  intros w k bk L Hk Ha Hl la bl Hla Hbl Hact Hbank. destruct (lg_tot w L k bk Hk) as [Sa Sl].
  pose proof (lg_wf w L) as Wf. pose proof (Forall_forall (Forall wf_bal) (bw_accts w)) as [F _]. pose proof (F Wf la Hla) as Wla.
  destruct (wsum_ge_member (bank_pk k) _ _ Wf Hla). destruct (lsum_ge_member (bank_pk k) _ _ Wla Hbl).
  pose proof (Forall_forall wf_bal la) as [G _]. destruct (G Wla bl Hbl).
  destruct (ca_self bl Hact) as [Ca Cl]. rewrite Hbank in Ca, Cl. lia.
Qed.

(* instruction level: the real instruction handlers (deposit, withdraw(all), borrow, repay(all), close_balance,
   liquidate with its four legs over two banks and two accounts, handle_bankruptcy, accrue, collect_fees) as modelled in
   Handlers.v: from a well-formed world (HOk2, which contains the ledger invariant), after any history of instructions
   with u64 amounts that does not wipe a bank out, every bank's totals still cover the sum of
   all positions recorded in all accounts *)
Theorem C02_instruction_level :
  forall ops w, HOk2 w -> Forall hop_ok2 ops -> run_no_wipeout w ops ->
  forall b hb, nth_bank (hrun w ops) b = Ok hb ->
  wsum (ca (bank_pk b)) (map ha_la (hw_accts (hrun w ops))) <= b_tas (hb_b hb) /\
  wsum (cl (bank_pk b)) (map ha_la (hw_accts (hrun w ops))) <= b_tls (hb_b hb).
Proof.
  intros ops w H2 Hops Hnw b hb Hb. destruct (hrun_keeps_HOk2 _ _ H2 Hops Hnw) as ((_ & L & _) & _).
  exact (lg_tot _ L b (hb_b hb) (nth_res_ok _ _ _ (nth_res_map hb_b _ _ _ Hb))).
Qed.

(* account transfer and account close (model AcctLifecycle.v of transfer_to_new_account / marginfi_account_close, tied to
   the real handlers by the suite `acctlife`): a transfer keeps, for every bank key, the sum of the recorded asset and
   liability shares over all accounts; a close removes only an account whose every slot holds less than 1.0 shares
   on both sides (what the program treats as empty), so bank totals stay >= the sum of positions and the excess
   grows only by such dust *)
Theorem C02_transfer_keeps_position_sums :
  forall w old new signer na fw w' k, h_transfer w old new signer na fw = Ok w' ->
  osum (ca k) (lw_accts w') = osum (ca k) (lw_accts w) /\ osum (cl k) (lw_accts w') = osum (cl k) (lw_accts w).
Proof. exact transfer_keeps_position_sums. Qed.

Theorem C02_transfer_pda_keeps_position_sums :
  forall w old new signer na fw w' k, h_transfer_pda w old new signer na fw = Ok w' ->
  osum (ca k) (lw_accts w') = osum (ca k) (lw_accts w) /\ osum (cl k) (lw_accts w') = osum (cl k) (lw_accts w).
Proof. exact transfer_pda_keeps_position_sums. Qed.

Theorem C02_close_removes_only_empty_positions :
  forall w a signer w', h_close w a signer = Ok w' ->
  exists A, get_macct w a = Ok A /\
    Forall (fun bl => bl_a bl < EMPTY_BALANCE_THRESHOLD /\ bl_l bl < EMPTY_BALANCE_THRESHOLD) (ma_la A) /\
    lw_accts w' = set_nth a None (lw_accts w).
Proof. exact close_removes_only_empty_positions. Qed.

(* lending_account_purge_delev_balance (risk admin, sunset bank): the ledger invariant survives, the purged position's
   asset shares leave the bank total EXACTLY, the liability total, both share values and the vault are untouched, and
   what the closed position abandons in the liability total is at most ZERO_AMOUNT_THRESHOLD shares (the stored value
   is an i128, which is the range hypothesis) *)
Theorem C02_purge_keeps_ledger :
  forall w a b signs w', HLedger w -> dv_purge w a b signs = Ok w' -> HLedger w'.
Proof. exact purge_keeps_ledger. Qed.

Theorem C02_purge_effect_on_totals :
  forall w a b signs w',
  HLedger w -> dv_purge w a b signs = Ok w' ->
  exists hb hb' ac i bl,
    nth_bank w b = Ok hb /\ nth_bank w' b = Ok hb' /\ nth_acct w a = Ok ac /\
    find_active (bank_pk b) (ha_la ac) = Some i /\ nth_res i (ha_la ac) = Ok bl /\
    b_tas (hb_b hb') = b_tas (hb_b hb) - bl_a bl /\ b_tls (hb_b hb') = b_tls (hb_b hb) /\
    0 <= bl_l bl /\ (bl_l bl <= I128_MAX -> bl_l bl <= ZERO_AMOUNT_THRESHOLD) /\
    b_asv (hb_b hb') = b_asv (hb_b hb) /\ b_lsv (hb_b hb') = b_lsv (hb_b hb) /\ hb_vault hb' = hb_vault hb.
Proof. exact purge_effect_on_totals. Qed.

(* a whole forced-deleverage transaction [start_deleverage; withdrawals / repayments of any number; end_deleverage]
   keeps the instruction-level ledger *)
Theorem C02_deleverage_tx_keeps_ledger :
  forall w c a r signs steps w' c',
  Forall dstep_ok steps -> HOk2 w -> dv_tx w c a r signs steps = Ok (w', c') -> HLedger w'.
Proof. exact dv_tx_keeps_ledger. Qed.

(* lending_pool_close_bank (asked as a yes / no question, h_close_bank_probe = its four guards): if it would succeed in a
   world that satisfies the ledger invariant, the shares of ALL accounts in that bank add up to less than the dust
   threshold on both sides (the totals are stored as i128, which is the range hypothesis) *)
Theorem C02_close_bank_only_without_positions :
  forall w b, HLedger w -> h_close_bank_probe w b = Ok tt ->
  exists hb, nth_bank w b = Ok hb /\
    (b_tas (hb_b hb) <= I128_MAX -> wsum (ca (bank_pk b)) (map ha_la (hw_accts w)) < ZERO_AMOUNT_THRESHOLD) /\
    (b_tls (hb_b hb) <= I128_MAX -> wsum (cl (bank_pk b)) (map ha_la (hw_accts w)) < ZERO_AMOUNT_THRESHOLD).
Proof.
  intros w b L H. destruct (close_probe_inv _ _ H) as (hb & Hhb & _ & _ & _ & T1 & T2 & _).
  exists hb. split; [exact Hhb|].
  assert (Hbo : bank_of (bw_of w) b = Some (hb_b hb)) by exact (nth_res_ok _ _ _ (nth_res_map hb_b _ _ _ Hhb)).
  destruct (lg_tot _ L b (hb_b hb) Hbo) as [La Ll].
  destruct (wsum_nonneg_ca (bank_pk b) _ (lg_wf _ L)) as [Na Nl].
  cbn [bw_of bw_accts] in La, Ll, Na, Nl. pose proof I128_MIN_val.
  split; intros Hmax.
  - pose proof (is_zero_tol_small (b_tas (hb_b hb)) ltac:(lia) T1). lia.
  - pose proof (is_zero_tol_small (b_tls (hb_b hb)) ltac:(lia) T2). lia.
Qed.

(* non-vacuity: worlds with fresh accounts satisfy the invariant, for any banks with sane share values *)
Theorem C02_initial_world :
  forall banks n now pf, Forall (fun b => wf_sv b /\ 0 <= b_tas b /\ 0 <= b_tls b) banks ->
  Ledger (mkBW banks (repeat la_empty n) now pf).
Proof. exact ledger_init. Qed.

Print Assumptions C02_totals_cover_positions.
Print Assumptions C02_ledger_meaning.
Print Assumptions C02_exact_deltas_and_dust.
Print Assumptions C02_zero_totals_no_positions.
Print Assumptions C02_initial_world.
Print Assumptions C02_instruction_level.
Print Assumptions C02_transfer_keeps_position_sums.
Print Assumptions C02_transfer_pda_keeps_position_sums.
Print Assumptions C02_close_removes_only_empty_positions.
Print Assumptions C02_purge_keeps_ledger.
Print Assumptions C02_purge_effect_on_totals.
Print Assumptions C02_deleverage_tx_keeps_ledger.
Print Assumptions C02_close_bank_only_without_positions.
