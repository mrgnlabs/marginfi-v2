(* C04 — Risk gate: a successful borrow or withdrawal leaves the account initially healthy.
   Handler model: coq/model/Handlers.v (h_borrow, h_withdraw, init_health_check, positions);
   risk engine: coq/model/Risk.v (health_components, check_init_health, risk_tiers_ok, reconcile_emode,
   calc_value).  The oracle adapter is the abstract `feed` of every bank (how it derives from oracle
   accounts is C09); `fd_low_tw` / `fd_high_tw` are its low- / high-biased time-weighted prices.
   Quantification: every world, account, bank, amount; every portfolio (list of positions of any
   length); every list of e-mode configs.  "Empty" = fewer than 1.0 shares (Balance::is_empty compares
   shares with EMPTY_BALANCE_THRESHOLD = 1; DESIGN.md §7 C04 records this reading). *)
Require Import Base Constants Fixed Curve Bank BankOps Risk TransferFee Handlers.
Require Import Price RiskFeed.
Require Import FixedLemmas BankLemmas CurveLemmas ErrLemmas RiskValueLemmas RiskGateLemmas ReconcileLemmas RiskFeedLemmas NoRiskAccounts.
Local Open Scope Z_scope.

(* soundness: success outside a flash loan => the check on the FINAL account in the FINAL world passed *)
Theorem C04_borrow_sound :
  forall w a b n w' ac0,
  h_borrow w a b n = Ok w' -> nth_acct w a = Ok ac0 -> aflag ac0 ACCOUNT_IN_FLASHLOAN = false ->
  exists ac ps A L, nth_acct w' a = Ok ac /\ ha_flags ac = ha_flags ac0 /\
    positions w' (ha_la ac) = Ok ps /\ check_init_health ps = Ok tt /\
    health_components ps RqInitial = Ok (A, L) /\ L <= A /\ risk_tiers_ok ps = true.
Proof.
  intros w a b n w' ac0 H Hac0 Hfl. rewrite h_borrow_split in H.
  apply bind_ok in H as ([w3 ac3] & He & H). apply bind_ok in H as ([] & Hg & H).
  destruct (borrow_effects_facts _ _ _ _ _ _ He) as (Ha3 & _ & ac0' & Hac0' & Hflags).
  rewrite Hac0 in Hac0'. apply Ok_inj in Hac0' as <-.
  destruct (borrow_finish_keeps _ _ _ _ a _ H Hg) as [Ea Hg'].
  destruct (gate_passed _ _ _ Hg' Hflags Hfl) as (ps & A & L & HG).
  exists ac3, ps, A, L. rewrite Ea. auto.
Qed.

Theorem C04_withdraw_sound :
  forall w a b n all w' ac0,
  h_withdraw w a b n all = Ok w' -> nth_acct w a = Ok ac0 -> aflag ac0 ACCOUNT_IN_FLASHLOAN = false ->
  exists ac ps A L, nth_acct w' a = Ok ac /\ ha_flags ac = ha_flags ac0 /\
    positions w' (ha_la ac) = Ok ps /\ check_init_health ps = Ok tt /\
    health_components ps RqInitial = Ok (A, L) /\ L <= A /\ risk_tiers_ok ps = true.
Proof.
  intros w a b n all w' ac0 H Hac0 Hfl. rewrite h_withdraw_split in H.
  apply bind_ok in H as ([w3 ac3] & He & H). apply bind_ok in H as ([] & Hg & H). apply Ok_inj in H as <-.
  destruct (withdraw_effects_facts _ _ _ _ _ _ _ He) as (Ha3 & _ & ac0' & Hac0' & Hflags).
  rewrite Hac0 in Hac0'. apply Ok_inj in Hac0' as <-.
  destruct (gate_passed _ _ _ Hg Hflags Hfl) as (ps & A & L & HG).
  exists ac3, ps, A, L. auto.
Qed.

(* isolated tier: an active isolated-tier liability is the account's only non-empty liability;
   non-empty = at least 1.0 liability shares *)
Theorem C04_isolated_debt_is_only_debt :
  forall ps, risk_tiers_ok ps = true <->
  (forall p, In p (liabs_of ps) -> rc_tier (ps_cfg p) = TIER_ISOLATED -> liabs_of ps = [p]).
Proof.
  intros ps.
  unfold risk_tiers_ok. fold (liabs_of ps). set (ls := liabs_of ps). split.
  - intros H p Hp Hiso. apply orb_true_iff in H as [H|H]; apply Nat.eqb_eq in H.
    + pose proof (length_zero_filter _ _ H p Hp) as F. cbn beta in F. lia.
    + destruct ls as [|q [|q' r]]; try discriminate. destruct Hp as [->|[]]. reflexivity.
  - intros H. apply orb_true_iff.
    destruct (filter (fun p => rc_tier (ps_cfg p) =? TIER_ISOLATED) ls) as [|p r] eqn:E; [left; reflexivity|].
    right. assert (Hin : In p (filter (fun p => rc_tier (ps_cfg p) =? TIER_ISOLATED) ls)) by (rewrite E; left; reflexivity).
    apply filter_In in Hin as [Hin Hiso]. rewrite (H p Hin ltac:(lia)). reflexivity.
Qed.

Theorem C04_nonempty_means_one_unit :
  forall bl, (liab_nonempty bl = true <-> 1 * 2^48 <= bl_l bl) /\ (asset_nonempty bl = true <-> 1 * 2^48 <= bl_a bl).
Proof. intros bl. split; [apply liab_nonempty_iff | apply asset_nonempty_iff]. Qed.

(* converse: RiskEngineInitRejected comes only from the health comparison, on the state the
   instruction would have produced (borrow_effects / withdraw_effects = everything the handler does
   before the check; C04_handlers_split), and then A < L. Oracle adapters never return that code
   (feeds_ng; true of Fixed feeds: C04_fixed_feed_never_says_rejected). *)
Theorem C04_handlers_split :
  forall w a b n all,
  h_borrow w a b n = (let* (w3, ac3) := borrow_effects w a b n in
                      let* _ := init_health_check w3 ac3 in borrow_finish w w3 b) /\
  h_withdraw w a b n all = (let* (w3, ac3) := withdraw_effects w a b n all in
                            let* _ := init_health_check w3 ac3 in Ok w3).
Proof. intros. split; [apply h_borrow_split | apply h_withdraw_split]. Qed.

Theorem C04_borrow_rejected_only_when_unhealthy :
  forall w a b n,
  feeds_ng w -> h_borrow w a b n = Err (E 6009) ->
  exists w3 ac3 ps A L, borrow_effects w a b n = Ok (w3, ac3) /\
    aflag ac3 ACCOUNT_IN_FLASHLOAN = false /\ positions w3 (ha_la ac3) = Ok ps /\
    health_components ps RqInitial = Ok (A, L) /\ A < L.
Proof.
  intros w a b n Hw H. rewrite h_borrow_split in H. revert H.
  apply (gate_rejected _ _ w Hw (ng_borrow_effects w a b n) (fun w3 => ng_borrow_finish w w3 b)).
  intros w3 ac3 He. apply (borrow_effects_facts _ _ _ _ _ _ He).
Qed.

Theorem C04_withdraw_rejected_only_when_unhealthy :
  forall w a b n all,
  feeds_ng w -> h_withdraw w a b n all = Err (E 6009) ->
  exists w3 ac3 ps A L, withdraw_effects w a b n all = Ok (w3, ac3) /\
    aflag ac3 ACCOUNT_IN_FLASHLOAN = false /\ positions w3 (ha_la ac3) = Ok ps /\
    health_components ps RqInitial = Ok (A, L) /\ A < L.
Proof.
  intros w a b n all Hw H. rewrite h_withdraw_split in H. revert H.
  apply (gate_rejected _ _ w Hw (ng_withdraw_effects w a b n all)).
  - intros w3 H. discriminate.
  - intros w3 ac3 He. apply (withdraw_effects_facts _ _ _ _ _ _ _ He).
Qed.

Theorem C04_never_rejected_while_healthy :
  forall w a b n all w3 ac3 ps A L,
  feeds_ng w -> positions w3 (ha_la ac3) = Ok ps -> health_components ps RqInitial = Ok (A, L) -> L <= A ->
  (borrow_effects w a b n = Ok (w3, ac3) -> h_borrow w a b n <> Err (E 6009)) /\
  (withdraw_effects w a b n all = Ok (w3, ac3) -> h_withdraw w a b n all <> Err (E 6009)).
Proof.
  intros w a b n all w3 ac3 ps A L Hw Hp Hc HLA. split; intros He H.
  - apply (C04_borrow_rejected_only_when_unhealthy _ _ _ _ Hw) in H as (w3' & ac3' & ps' & A' & L' & He' & _ & Hp' & Hc' & HAL).
    rewrite He in He'. apply pair_ok in He' as [<- <-]. rewrite Hp in Hp'. apply Ok_inj in Hp' as <-.
    rewrite Hc in Hc'. apply pair_ok in Hc' as [<- <-]. lia.
  - apply (C04_withdraw_rejected_only_when_unhealthy _ _ _ _ _ Hw) in H as (w3' & ac3' & ps' & A' & L' & He' & _ & Hp' & Hc' & HAL).
    rewrite He in He'. apply pair_ok in He' as [<- <-]. rewrite Hp in Hp'. apply Ok_inj in Hp' as <-.
    rewrite Hc in Hc'. apply pair_ok in Hc' as [<- <-]. lia.
Qed.

Theorem C04_fixed_feed_never_says_rejected : forall p, feed_ng (fixed_feed p).
Proof. intros p. repeat split; discriminate. Qed.

(* the same for the feeds that the oracle-adapter model (Price.v, C09) yields for Fixed and Pyth push banks *)
Theorem C04_oracle_model_feeds_never_say_rejected :
  forall c ais now, oc_setup c = OS_Fixed \/ oc_setup c = OS_PythPushOracle -> feed_ng (feed_of_oracle c ais now).
Proof.
  intros c ais now Hs. pose proof (ng_try_from_bank c ais no_venue no_staking (mkCK now 0) Hs) as Hpf.
  unfold feed_ng, feed_of_oracle. cbn [fd_load fd_low_rt fd_high_rt fd_low_tw fd_high_tw].
  split; [|repeat split; (apply ng_bind_ok; [exact Hpf | intros f _; apply ng_px_price_of_type])].
  intros H. apply Hpf. destruct (px_try_from_bank _ _ _ _ _); [discriminate | congruence].
Qed.

(* the two totals are the sums of the per-position weighted values under the reconciled e-mode config *)
Theorem C04_health_is_sum_of_weighted_values :
  forall ps r A L, health_components ps r = Ok (A, L) ->
  exists vs : list (fx * fx * Z),
    Forall2 (fun p v => weighted_value p r (engine_emode ps) = Ok v) ps vs /\
    A = zsum (map (fun v => fst (fst v)) vs) /\ L = zsum (map (fun v => snd (fst v)) vs).
Proof.
  intros ps r A L H. apply health_sum_is_sum in H as (vs & HF & -> & ->). exists vs. auto.
Qed.

Theorem C04_position_counts_on_one_side :
  forall p r em av lv c, weighted_value p r em = Ok (av, lv, c) ->
  (liab_nonempty (ps_bal p) = true /\ asset_nonempty (ps_bal p) = false /\ av = 0 /\ c = 0 /\
     exists hp, weighted_liab_value p r = Ok (lv, hp)) \/
  (liab_nonempty (ps_bal p) = false /\ asset_nonempty (ps_bal p) = true /\ lv = 0 /\
     exists lp, weighted_asset_value p r em = Ok (av, lp, c)) \/
  (liab_nonempty (ps_bal p) = false /\ asset_nonempty (ps_bal p) = false /\ av = 0 /\ lv = 0 /\ c = 0).
Proof.
  intros p r em av lv c.
  unfold weighted_value, get_side, liab_nonempty, asset_nonempty. intros H.
  apply bind_ok in H as (sd & Hs & H). apply bind_ok in Hs as (u & Hu & Hs). apply assert_ok in Hu.
  destruct (EMPTY_BALANCE_THRESHOLD <=? bl_l (ps_bal p)) eqn:El.
  - apply Ok_inj in Hs as <-. left.
    apply bind_ok in H as ([v hp] & Hv & H). apply Ok_inj in H. inversion H; subst.
    repeat split; try lia. exists hp. exact Hv.
  - destruct (EMPTY_BALANCE_THRESHOLD <=? bl_a (ps_bal p)) eqn:Ea; apply Ok_inj in Hs as <-.
    + right; left. apply bind_ok in H as ([[v lp] c'] & Hv & H). apply Ok_inj in H. inversion H; subst.
      repeat split. exists lp. exact Hv.
    + right; right. apply Ok_inj in H. inversion H; subst. repeat split.
Qed.

(* liabilities (initial requirement): amount x liability init weight x HIGH-biased time-weighted price *)
Theorem C04_liability_value_initial :
  forall p v hp, weighted_liab_value p RqInitial = Ok (v, hp) ->
  fd_load (ps_feed p) = Ok tt /\ fd_high_tw (ps_feed p) = Ok hp /\
  exists amt, get_liability_amount (ps_bank p) (bl_l (ps_bal p)) = Ok amt /\
    calc_value amt hp (balance_decimals (ps_bank p)) (Some (rc_lwi (ps_cfg p))) = Ok v.
Proof. intros p. exact (weighted_liab_value_spec p RqInitial). Qed.

(* assets (initial requirement): 0 for isolated tier / reduce-only / unusable oracle (error code kept);
   otherwise amount x weight x LOW-biased time-weighted price, weight = max(bank init weight, reconciled
   e-mode init weight) x init-limit discount *)
Theorem C04_asset_value_initial :
  forall p em v lp c, weighted_asset_value p RqInitial em = Ok (v, lp, c) ->
  (rc_tier (ps_cfg p) = TIER_ISOLATED /\ v = 0 /\ c = 0) \/
  (rc_tier (ps_cfg p) <> TIER_ISOLATED /\ b_op_state (ps_bank p) = OP_REDUCE_ONLY /\ v = 0 /\ c = 0) \/
  (rc_tier (ps_cfg p) <> TIER_ISOLATED /\ b_op_state (ps_bank p) <> OP_REDUCE_ONLY /\
     fd_load (ps_feed p) = Err (E c) /\ v = 0) \/
  (rc_tier (ps_cfg p) <> TIER_ISOLATED /\ b_op_state (ps_bank p) <> OP_REDUCE_ONLY /\ c = 0 /\
     fd_load (ps_feed p) = Ok tt /\ fd_low_tw (ps_feed p) = Ok lp /\
     exists w amt, asset_weight_init p em lp = Ok w /\
       get_asset_amount (ps_bank p) (bl_a (ps_bal p)) = Ok amt /\
       calc_value amt lp (balance_decimals (ps_bank p)) (Some w) = Ok v).
Proof.
  intros p em v lp c.
  unfold weighted_asset_value. intros H.
  destruct (rc_tier (ps_cfg p) =? TIER_ISOLATED) eqn:Et.
  { apply Ok_inj in H. inversion H; subst. left. repeat split. lia. }
  right. destruct (b_op_state (ps_bank p) =? OP_REDUCE_ONLY) eqn:Eo; cbn [andb] in H.
  { apply Ok_inj in H. inversion H; subst. left. repeat split; lia. }
  right. destruct (fd_load (ps_feed p)) as [[]|e] eqn:El.
  - right. cbn [price_low] in H.
    apply bind_ok in H as (lp' & Hlp & H). apply bind_ok in H as (w & Hw & H).
    apply bind_ok in H as (amt & Ha & H). apply bind_ok in H as (v' & Hv & H).
    apply Ok_inj in H. inversion H; subst.
    repeat split; try lia; try assumption. exists w, amt. split; [|split; assumption].
    unfold asset_weight_init. cbn [get_weight] in Hw.
    apply bind_ok in Hw as (d & Hd & Hw). rewrite Hd. cbn [bind].
    destruct (find_with_tag em (rc_emode_tag (ps_cfg p))); exact Hw.
  - left. destruct e as [| |code]; try discriminate. apply Ok_inj in H. inversion H; subst.
    repeat split; lia.
Qed.

Theorem C04_init_limit_discount :
  forall b c price d, init_discount b c price = Ok d ->
  (rc_tavil c = 0 /\ d = None) \/
  (rc_tavil c <> 0 /\ exists ta tv, get_asset_amount b (b_tas b) = Ok ta /\
     calc_value ta price (balance_decimals b) None = Ok tv /\
     ((tv <= of_int (rc_tavil c) /\ d = None) \/
      (of_int (rc_tavil c) < tv /\ exists q, cdiv (of_int (rc_tavil c)) tv = Ok q /\ d = Some q))).
Proof.
  intros b c price d.
  unfold init_discount. change TOTAL_ASSET_VALUE_INIT_LIMIT_INACTIVE with 0. intros H.
  destruct (rc_tavil c =? 0) eqn:E0.
  { apply Ok_inj in H. left. split; [lia | auto]. }
  right. split; [lia|]. apply bind_ok in H as (ta & Hta & H). apply bind_ok in H as (tv & Htv & H).
  exists ta, tv. split; [exact Hta|]. split; [exact Htv|].
  destruct (of_int (rc_tavil c) <? tv) eqn:El.
  - right. apply bind_ok in H as (q & Hq & H). apply math_ok in Hq. apply Ok_inj in H.
    split; [lia|]. exists q. split; [exact Hq | auto].
  - left. apply Ok_inj in H. split; [lia | auto].
Qed.

(* e-mode: the reconciled config = intersection of the borrowing banks' configs with entry-wise
   minimum (configs have distinct non-empty tags: wf_cfg, enforced by config validation, C13) *)
Theorem C04_emode_is_reconciled_over_borrowing_banks :
  forall ps, engine_emode ps = reconcile_emode (map (fun p => rc_emode (ps_cfg p)) (liabs_of ps)).
Proof. reflexivity. Qed.

Theorem C04_reconcile_present_iff_in_all_and_minimum :
  forall cfgs t x, Forall wf_cfg cfgs -> find_with_tag (reconcile_emode cfgs) t = Some x ->
  t <> 0 /\ re_tag x = t /\
  (forall c, In c cfgs -> exists e, find_with_tag c t = Some e /\
       re_flags x <= re_flags e /\ re_wi x <= re_wi e /\ re_wm x <= re_wm e) /\
  (exists c e, In c cfgs /\ find_with_tag c t = Some e /\ re_flags x = re_flags e) /\
  (exists c e, In c cfgs /\ find_with_tag c t = Some e /\ re_wi x = re_wi e) /\
  (exists c e, In c cfgs /\ find_with_tag c t = Some e /\ re_wm x = re_wm e).
Proof.
  intros cfgs t x.
  intros Hwf H.
  assert (Ht : t <> 0).
  { intros ->. unfold find_with_tag in H. change (0 =? EMODE_TAG_EMPTY) with true in H. discriminate. }
  assert (Hne : cfgs <> []) by (intros ->; cbn in H; unfold find_with_tag in H; destruct (t =? EMODE_TAG_EMPTY); discriminate).
  rewrite (reconcile_get _ _ Ht Hne Hwf) in H. pose proof (accum_spec t cfgs) as G.
  destruct (accum t cfgs None) as [[y k]|]; [|discriminate].
  destruct (k =? Z.of_nat (length cfgs)) eqn:Ek; [|discriminate]. injection H as ->.
  destruct G as (Gt & Gk & Gp & [Lf (c1 & e1 & I1 & H1 & M1)] & [Li (c2 & e2 & I2 & H2 & M2)] & [Lm (c3 & e3 & I3 & H3 & M3)]).
  assert (Hall : forall c, In c cfgs -> exists e, has t c = Some e) by (apply cnt_full; lia).
  split; [exact Ht|]. split; [exact Gt|]. split; [|split; [|split]].
  - intros c Hc. destruct (Hall c Hc) as (e & He). exists e. rewrite find_with_tag_has by exact Ht.
    split; [exact He|]. split; [exact (Lf _ _ Hc He) | split; [exact (Li _ _ Hc He) | exact (Lm _ _ Hc He)]].
  - exists c1, e1. rewrite find_with_tag_has by exact Ht. split; [exact I1 | split; assumption].
  - exists c2, e2. rewrite find_with_tag_has by exact Ht. split; [exact I2 | split; assumption].
  - exists c3, e3. rewrite find_with_tag_has by exact Ht. split; [exact I3 | split; assumption].
Qed.

Theorem C04_reconcile_absent_iff_missing_somewhere :
  forall cfgs t, Forall wf_cfg cfgs -> find_with_tag (reconcile_emode cfgs) t = None ->
  t = 0 \/ cfgs = [] \/ exists c, In c cfgs /\ find_with_tag c t = None.
Proof.
  intros cfgs t.
  intros Hwf H. destruct (Z.eq_dec t 0) as [Ht|Ht]; [left; exact Ht|]. right.
  destruct cfgs as [|c0 rest] eqn:Ecf; [left; reflexivity|]. right. rewrite <- Ecf in *.
  assert (Hne : cfgs <> []) by (rewrite Ecf; discriminate).
  rewrite (reconcile_get _ _ Ht Hne Hwf) in H. pose proof (accum_spec t cfgs) as G.
  destruct (classic_all t cfgs) as [Hall | (c & Hc & Hn)].
  - exfalso. pose proof (cnt_full_rev t cfgs Hall) as Hc.
    destruct (accum t cfgs None) as [[y k]|]; cbn [good] in G.
    + destruct G as (_ & Gk & _). replace (k =? Z.of_nat (length cfgs)) with true in H by lia. discriminate.
    + rewrite Ecf in Hc, G. cbn [length] in Hc. lia.
  - exists c. split; [exact Hc|]. rewrite find_with_tag_has by exact Ht. exact Hn.
Qed.

Theorem C04_value_monotone :
  forall a p p' d w w' v v',
  0 <= a ->
  (0 <= w -> p <= p' -> calc_value a p d (Some w) = Ok v -> calc_value a p' d (Some w) = Ok v' -> v <= v') /\
  (0 <= p -> w <= w' -> calc_value a p d (Some w) = Ok v -> calc_value a p d (Some w') = Ok v' -> v <= v').
Proof.
  intros a p p' d w w' v v' Ha. split.
  - intros Hw. apply low_bias_is_conservative; assumption.
  - intros Hp Hw. apply calc_value_mono. apply Z.mul_le_mono_nonneg_r; [exact Hp|].
    apply Z.div_le_mono; [apply ONE_pos | nia].
Qed.

(* calc_value never exceeds the exact rational amount*weight*price/10^dec and is below it by less than
   1 + (1 + price)/10^dec units in the last place (2^-48 dollars); all numbers raw I80F48 bits *)
Theorem C04_value_rounding_bound :
  forall a p d w v, 0 <= a -> 0 <= w -> 0 <= p -> calc_value a p d (Some w) = Ok v ->
  0 <= v /\
  v * (10 ^ d * 2^48) * 2^48 <= a * w * p /\
  a * w * p < (v + 1) * (10 ^ d * 2^48) * 2^48 + 2^48 * 2^48 + 2^48 * p.
Proof. exact calc_value_bound. Qed.

(* non-vacuity: a concrete world where a borrow at the exact boundary is accepted and one native
   unit more is rejected with RiskEngineInitRejected *)
Definition ex_bank : bank := mkBank ONE ONE 0 0 0 0 0 0 U64_MAX U64_MAX 0 6 0 0 0 0 0 1 (mkIR 0 0 0 0 0 0 0 0 0 [] 1).
Definition ex_hb : hbank :=
  mkHB ex_bank (mkRC (ONE / 2) (ONE / 2) ONE ONE 0 0 0 []) (fixed_feed ONE) 0 0 0 0 false 0 0 0.
Definition ex_w : hworld :=
  mkHW [ex_hb; ex_hb] [mkHA la_empty 0; mkHA la_empty 0] 0 (mkPF false 0 0) [[2^62; 2^62]; [2^62; 2^62]] false.
Definition ex_setup : list hop := [HDeposit 0 1 1000000000 false; HDeposit 1 0 100000000 false].
Example C04_nonvacuous :
  is_ok (foldM hstep (ex_setup ++ [HBorrow 1 1 50000000]) ex_w) = true /\
  foldM hstep (ex_setup ++ [HBorrow 1 1 50000001]) ex_w = Err (E 6009).
Proof. split; vm_compute; reflexivity. Qed.

(* the same two instructions sent WITHOUT their risk (bank / oracle) accounts: everything up to the health check is
   identical (h_borrow_norem / h_withdraw_norem), the engine cannot load the first active balance; success is possible
   only inside a flash loan (check skipped, C11 owns the end check) or for an account left without any active balance *)
Theorem C04_borrow_without_risk_accounts :
  forall w a b n w', h_borrow_norem w a b n = Ok w' ->
  exists ac3, nth_acct w' a = Ok ac3 /\
    (aflag ac3 ACCOUNT_IN_FLASHLOAN = true \/ existsb bl_active (ha_la ac3) = false).
Proof. exact borrow_norem_only_flashloan_or_empty. Qed.

(* stronger for the borrow: it always leaves the borrowed-from balance active, so without risk accounts it succeeds ONLY
   inside a flash loan *)
Theorem C04_borrow_without_risk_accounts_only_in_flashloan :
  forall w a b n w', h_borrow_norem w a b n = Ok w' ->
  exists ac, nth_acct w a = Ok ac /\ aflag ac ACCOUNT_IN_FLASHLOAN = true.
Proof. exact borrow_norem_only_in_flashloan. Qed.

Theorem C04_withdraw_without_risk_accounts :
  forall w a b n all w', h_withdraw_norem w a b n all = Ok w' ->
  exists ac3, nth_acct w' a = Ok ac3 /\
    (aflag ac3 ACCOUNT_IN_FLASHLOAN = true \/ existsb bl_active (ha_la ac3) = false).
Proof. exact withdraw_norem_only_flashloan_or_empty. Qed.

Print Assumptions C04_borrow_sound.
Print Assumptions C04_borrow_without_risk_accounts.
Print Assumptions C04_withdraw_without_risk_accounts.
Print Assumptions C04_borrow_without_risk_accounts_only_in_flashloan.
Print Assumptions C04_withdraw_sound.
Print Assumptions C04_isolated_debt_is_only_debt.
Print Assumptions C04_nonempty_means_one_unit.
Print Assumptions C04_handlers_split.
Print Assumptions C04_borrow_rejected_only_when_unhealthy.
Print Assumptions C04_withdraw_rejected_only_when_unhealthy.
Print Assumptions C04_never_rejected_while_healthy.
Print Assumptions C04_fixed_feed_never_says_rejected.
Print Assumptions C04_oracle_model_feeds_never_say_rejected.
Print Assumptions C04_health_is_sum_of_weighted_values.
Print Assumptions C04_position_counts_on_one_side.
Print Assumptions C04_liability_value_initial.
Print Assumptions C04_asset_value_initial.
Print Assumptions C04_init_limit_discount.
Print Assumptions C04_emode_is_reconciled_over_borrowing_banks.
Print Assumptions C04_reconcile_present_iff_in_all_and_minimum.
Print Assumptions C04_reconcile_absent_iff_missing_somewhere.
Print Assumptions C04_value_monotone.
Print Assumptions C04_value_rounding_bound.
