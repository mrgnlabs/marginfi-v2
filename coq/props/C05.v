(* C05 — Classic liquidation is possible only when unhealthy, improves health, and is bounded.
   Handler model: coq/model/Handlers.v (h_liquidate), risk engine coq/model/Risk.v (pre_liquidation,
   post_liquidation, health_components with RqMaint = real-time prices, maintenance weights).
   Hypotheses of the handler theorems: hw_ok w (every bank has asset share value >= 0, liability share
   value > 0, totals >= 0; every position has shares >= 0 — the ledger invariant of C02) and
   liquidator <> liquidatee (the real program cannot load one account mutably twice).
   Quantification: every world, every pair of accounts and banks, every amount. *)
Require Import Base Constants Fixed Curve Bank BankOps Risk TransferFee Handlers.
Require Import NumLemmas FixedLemmas BankLemmas HandlerLemmas SolvencyLemmas LedgerLemmas RiskValueLemmas RiskGateLemmas LiquidationLemmas.
Require Import SolvencyHandlers HandlerWorld NoRiskAccounts.
Local Open Scope Z_scope.

(* ---- eligibility, improvement, bound.  h0 = maintenance health of the liquidatee's (sorted) positions in
   the world with both banks accrued, h1 = maintenance health of its final positions in the final world.
   Success => h0 < h1 <= 0, hence h0 < 0: liquidation happens only when unhealthy, strictly improves
   health, and does not lift it above zero. (The pre-check alone rejects only h0 > 0; h0 = 0 is excluded
   by the post-check h0 < h1 <= 0: C05_precheck_alone_accepts_zero.) *)
Theorem C05_only_unhealthy_improves_bounded :
  forall w r e ab lb n w',
  hw_ok w -> r <> e -> h_liquidate w r e ab lb n = Ok w' ->
  exists ha hl ee ba1 bl1 ps0 h0 A0 L0 ee3 ps1 h1 A1 L1,
    nth_bank w ab = Ok ha /\ nth_bank w lb = Ok hl /\ nth_acct w e = Ok ee /\
    accrue_interest (hb_b ha) (hw_pf w) (hw_now w) = Ok ba1 /\
    accrue_interest (hb_b hl) (hw_pf w) (hw_now w) = Ok bl1 /\
    positions (accrued_world w ab lb ha hl ba1 bl1) (sort_balances (ha_la ee)) = Ok ps0 /\
    pre_liquidation ps0 (Some (bank_pk lb)) false = Ok (h0, A0, L0) /\
    health_components ps0 RqMaint = Ok (A0, L0) /\ h0 = A0 - L0 /\
    nth_acct w' e = Ok ee3 /\ positions w' (ha_la ee3) = Ok ps1 /\
    post_liquidation ps1 (bank_pk lb) h0 = Ok h1 /\
    health_components ps1 RqMaint = Ok (A1, L1) /\ h1 = A1 - L1 /\
    h0 < h1 <= 0 /\ h0 < 0.
Proof.
  intros w r e ab lb n w' Hw Hre H.
  destruct (h_liquidate_inv _ _ _ _ _ _ _ Hw Hre H) as
    (ha & hl & ee & er & ba1 & bl1 & ps0 & ps1 & h0 & A0 & L0 & h1 & ap & lp & v1 & v2 & q_liq & q_fin & i1 & i2 & i3 & i4 & la1 & la3 &
     b1 & b1' & b2 & b2' & b3 & b3' & b4 & b4' & bl2 & ba2 & ba3 & bl3 & ee3 & er3 & ha' & hl' & f & F).
  destruct F as [_ [Hha Hhl] [Hee _] [Hba1 Hbl1] _ [Hps0 Hpre] _ _ _ _ _ _ [_ Hee3] _ _ _ [Hps1 Hpost] _ _].
  destruct (pre_liquidation_inv _ _ _ _ _ Hpre) as (_ & Hc0 & Eh0 & _).
  destruct (post_liquidation_inv _ _ _ _ Hpost) as (_ & (A1 & L1 & Hc1 & Eh1) & Hlt).
  exists ha, hl, ee, ba1, bl1, ps0, h0, A0, L0, ee3, ps1, h1, A1, L1.
  repeat split; try assumption; lia.
Qed.

Theorem C05_precheck_alone_accepts_zero :
  forall ps k A L,
  health_components ps RqMaint = Ok (A, L) -> A - L = 0 -> I128_MIN <= A - L <= I128_MAX ->
  (exists p, find_pos ps k = Some p /\ liab_nonempty (ps_bal p) = true /\ asset_nonempty (ps_bal p) = false) ->
  pre_liquidation ps (Some k) false = Ok (0, A, L).
Proof.
  intros ps k A L Hc Hz Hr (p & Hp & H1 & H2). unfold pre_liquidation. rewrite Hp, H1, H2. cbn [check negb bind].
  rewrite Hc. cbn [bind]. rewrite csub_ok by exact Hr. cbn [math ok_or bind]. rewrite Hz. reflexivity.
Qed.

(* ---- nothing flipped; over-liquidation guard.  b4' = the liquidatee's final position in the debt bank
   (still >= 1.0 liability shares, < 1.0 asset shares); b2 -> b2' = the seized position (liability shares
   unchanged, asset shares not increased and not negative); seized amount <= its asset amount *)
Theorem C05_no_flip_and_overliquidation_guard :
  forall w r e ab lb n w',
  hw_ok w -> r <> e -> h_liquidate w r e ab lb n = Ok w' ->
  exists ee ee3 ba1 i2 i4 b2 b2' b4',
    nth_acct w e = Ok ee /\ nth_acct w' e = Ok ee3 /\
    find_active (bank_pk lb) (ha_la ee3) = Some i4 /\ nth_error (ha_la ee3) i4 = Some b4' /\
    liab_nonempty b4' = true /\ asset_nonempty b4' = false /\
    find_active (bank_pk ab) (sort_balances (ha_la ee)) = Some i2 /\
    nth_error (sort_balances (ha_la ee)) i2 = Some b2 /\ nth_error (ha_la ee3) i2 = Some b2' /\
    bl_l b2' = bl_l b2 /\ 0 <= bl_a b2' <= bl_a b2 /\
    of_int n <= bl_a b2 * b_asv ba1 / ONE.
Proof.
  intros w r e ab lb n w' Hw Hre H.
  destruct (h_liquidate_inv _ _ _ _ _ _ _ Hw Hre H) as
    (ha & hl & ee & er & ba1 & bl1 & ps0 & ps1 & h0 & A0 & L0 & h1 & ap & lp & v1 & v2 & q_liq & q_fin & i1 & i2 & i3 & i4 & la1 & la3 &
     b1 & b1' & b2 & b2' & b3 & b3' & b4 & b4' & bl2 & ba2 & ba3 & bl3 & ee3 & er3 & ha' & hl' & f & F).
  destruct F as [[Hn _] _ [Hee _] _ _ _ _ _ _ (Hf2 & Nb2 & Hov & F2) _ (Hf4 & Nb4 & Hi42 & F4) [Eee3 Hee3] _ _ _ [Hps1 Hpost] _
                 (Sva1 & _ & _ & Wb2 & _ & _ & _ & _ & _ & Ab4 & Bb4)].
  destruct (if_meta _ _ _ _ _ _ F4) as (M4a & M4b & _).
  assert (Hfa : find_active (bank_pk lb) (ha_la ee3) = Some i4).
  { rewrite Eee3. apply find_active_set_same; [exact Hf4 | congruence | congruence]. }
  assert (Nb4' : nth_error (ha_la ee3) i4 = Some b4') by (rewrite Eee3; exact (nth_set_nth_same _ _ _ _ Nb4)).
  assert (Nb2' : nth_error (ha_la ee3) i2 = Some b2').
  { rewrite Eee3. cbn [ha_la]. rewrite nth_set_nth_other by exact Hi42. exact (nth_set_nth_same _ _ _ _ Nb2). }
  destruct (post_liquidation_slot _ _ _ _ _ _ _ _ Hps1 Hpost Hfa Nb4') as [Hl Ha].
  assert (Hn0 : 0 <= of_int n) by (apply Z.mul_nonneg_nonneg; [apply Z.lt_le_incl, Hn | apply Z.lt_le_incl, ONE_pos]).
  destruct (dec_within_assets _ _ _ _ _ _ Sva1 Wb2 (conj Hn0 Hov) F2) as [Dl [Da0 Da1]].
  exists ee, ee3, ba1, i2, i4, b2, b2', b4'. repeat split; assumption.
Qed.

(* ---- the liquidator passed the initial-health gate (C04) on the final world *)
Theorem C05_liquidator_remains_initially_healthy :
  forall w r e ab lb n w',
  hw_ok w -> r <> e -> h_liquidate w r e ab lb n = Ok w' ->
  exists er er3, nth_acct w r = Ok er /\ nth_acct w' r = Ok er3 /\ ha_flags er3 = ha_flags er /\
    init_health_check w' er3 = Ok tt /\
    (aflag er ACCOUNT_IN_FLASHLOAN = false ->
     exists ps A L, positions w' (ha_la er3) = Ok ps /\ health_components ps RqInitial = Ok (A, L) /\
       L <= A /\ risk_tiers_ok ps = true).
Proof.
  intros w r e ab lb n w' Hw Hre H.
  destruct (h_liquidate_inv _ _ _ _ _ _ _ Hw Hre H) as
    (ha & hl & ee & er & ba1 & bl1 & ps0 & ps1 & h0 & A0 & L0 & h1 & ap & lp & v1 & v2 & q_liq & q_fin & i1 & i2 & i3 & i4 & la1 & la3 &
     b1 & b1' & b2 & b2' & b3 & b3' & b4 & b4' & bl2 & ba2 & ba3 & bl3 & ee3 & er3 & ha' & hl' & f & F).
  destruct F as [_ _ [_ Her] _ _ _ _ _ _ _ _ _ _ (Eer3 & Her3 & _) _ _ _ Hg _].
  assert (Efl : ha_flags er3 = ha_flags er) by (rewrite Eer3; reflexivity).
  exists er, er3. split; [exact Her|]. split; [exact Her3|]. split; [exact Efl|]. split; [exact Hg|]. intros Hfl.
  destruct (gate_passed _ _ _ Hg Efl Hfl) as (ps & A & L & Hp & _ & HAL). exists ps, A, L. split; assumption.
Qed.

(* ---- quantities and fee split.  2.5% + 2.5% as I80F48 constants; 1 - 0.025 and 1 - 0.05 as computed *)
Theorem C05_fee_constants :
  LIQUIDATION_LIQUIDATOR_FEE = 25 * 2^48 / 1000 /\ LIQUIDATION_INSURANCE_FEE = 25 * 2^48 / 1000 /\
  975 * 2^48 / 1000 <= 2^48 - 25 * 2^48 / 1000 <= 975 * 2^48 / 1000 + 1 /\
  95 * 2^48 / 100 <= 2^48 - (25 * 2^48 / 1000 + 25 * 2^48 / 1000) <= 95 * 2^48 / 100 + 1.
Proof. split; [reflexivity|]. split; [reflexivity|]. split; split; vm_compute; discriminate. Qed.

Theorem C05_quantities_and_fee_split :
  forall w r e ab lb n w',
  hw_ok w -> r <> e -> h_liquidate w r e ab lb n = Ok w' ->
  exists ha hl er ee ba1 bl1 ap lp v1 v2 q_liq q_fin i1 la1 b1 b1' i2 b2' i4 b4 b4' bl2 bl3 er3 hl' f,
    nth_bank w ab = Ok ha /\ nth_bank w lb = Ok hl /\ nth_acct w r = Ok er /\ nth_acct w e = Ok ee /\
    accrue_interest (hb_b ha) (hw_pf w) (hw_now w) = Ok ba1 /\
    accrue_interest (hb_b hl) (hw_pf w) (hw_now w) = Ok bl1 /\
    fd_low_rt (hb_feed ha) = Ok ap /\ 0 < ap /\ fd_high_rt (hb_feed hl) = Ok lp /\ 0 < lp /\
    calc_value (of_int n) ap (balance_decimals ba1) (Some (2^48 - 25 * 2^48 / 1000)) = Ok v1 /\
    calc_amount v1 lp (balance_decimals bl1) = Ok q_liq /\
    calc_value (of_int n) ap (balance_decimals ba1) (Some (2^48 - (25 * 2^48 / 1000 + 25 * 2^48 / 1000))) = Ok v2 /\
    calc_amount v2 lp (balance_decimals bl1) = Ok q_fin /\
    0 <= q_fin <= q_liq /\
    wrapper_find_or_create (bank_pk lb) bl1 (ha_la er) (hw_now w) = Ok (i1, la1) /\ nth_error la1 i1 = Some b1 /\
    dec_facts bl1 b1 q_liq DecBypassBorrowLimit bl2 b1' /\
    nth_acct w' r = Ok er3 /\ In b1' (ha_la er3) /\
    find_active (bank_pk lb) (set_nth i2 b2' (sort_balances (ha_la ee))) = Some i4 /\
    nth_error (set_nth i2 b2' (sort_balances (ha_la ee))) i4 = Some b4 /\
    inc_facts bl2 b4 q_fin IncRepayOnly bl3 b4' /\
    nth_bank w' lb = Ok hl' /\ tfee hl ((q_liq - q_fin) / 2^48) = Ok f /\
    (q_liq - q_fin) / 2^48 <= hb_vault hl /\
    hb_vault hl' = hb_vault hl - (q_liq - q_fin) / 2^48 /\
    hb_insv hl' = hb_insv hl + (q_liq - q_fin) / 2^48 - f /\
    hb_feev hl' = hb_feev hl /\ hb_feeata hl' = hb_feeata hl /\
    b_ins (hb_b hl') = b_ins bl1 + (q_liq - q_fin) mod 2^48.
Proof.
  intros w r e ab lb n w' Hw Hre H.
  destruct (h_liquidate_inv _ _ _ _ _ _ _ Hw Hre H) as
    (ha & hl & ee & er & ba1 & bl1 & ps0 & ps1 & h0 & A0 & L0 & h1 & ap & lp & v1 & v2 & q_liq & q_fin & i1 & i2 & i3 & i4 & la1 & la3 &
     b1 & b1' & b2 & b2' & b3 & b3' & b4 & b4' & bl2 & ba2 & ba3 & bl3 & ee3 & er3 & ha' & hl' & f & F).
  destruct F as [_ [Hha Hhl] [Hee Her] [Hba1 Hbl1] _ _ (_ & Hap & Hap0 & _ & Hlp & Hlp0) (Hv1 & Hq1 & Hv2 & Hq2 & Hq)
                 (Hfc1 & Nb1 & F1) _ _ (Hf4 & Nb4 & _ & F4) _ (_ & Her3 & In1 & _)
                 (Hhl' & Hf & Hv & V1 & V2 & V3 & V4 & V5 & _) _ _ _ _].
  exists ha, hl, er, ee, ba1, bl1, ap, lp, v1, v2, q_liq, q_fin, i1, la1, b1, b1', i2, b2', i4, b4, b4', bl2, bl3, er3, hl', f.
  change (2^48) with ONE. change (ONE - 25 * ONE / 1000) with D_LIQ. change (ONE - (25 * ONE / 1000 + 25 * ONE / 1000)) with D_FIN.
  repeat (split; [assumption|]). assumption.
Qed.

(* each quantity against the exact rational n * p_asset * discount * 10^dl / (10^da * p_liab) *)
Theorem C05_quantity_rounding_bound :
  forall n ap lp da dl D v q,
  0 < n -> 0 <= D -> 0 <= ap -> 0 < lp ->
  calc_value (of_int n) ap da (Some D) = Ok v -> calc_amount v lp dl = Ok q ->
  q * lp * 10 ^ da <= n * D * ap * 10 ^ dl /\
  n * D * ap * 10 ^ dl < (q + 1) * lp * 10 ^ da + (10 ^ da * 2^48 + 2^48 + ap) * 10 ^ dl.
Proof.
  intros n ap lp da dl D v q Hn HD Hap Hlp Hv Hq. pose proof ONE_pos as HO.
  assert (Hn0 : 0 <= of_int n) by (unfold of_int; nia).
  destruct (calc_value_bound _ _ _ _ _ Hn0 HD Hap Hv) as (Hv0 & Hlo & Hhi).
  destruct (calc_amount_bound _ _ _ _ Hv0 Hlp Hq) as (Hq0 & Hqlo & Hqhi).
  destruct (calc_amount_inv _ _ _ _ Hv0 Hlp Hq) as (Hdl & _ & _).
  assert (Hda : 0 <= da < 24) by (apply calc_value_inv in Hv as [_ Hd]; apply Hd; unfold of_int; nia).
  change (2^48) with ONE in *. unfold of_int in *.
  pose proof (pow10_pos da ltac:(lia)) as HX. pose proof (pow10_pos dl ltac:(lia)) as HY.
  set (X := 10 ^ da) in *. set (Y := 10 ^ dl) in *.
  assert (L1 : v * X * ONE <= n * D * ap).
  { apply (Z.mul_le_mono_pos_r _ _ ONE HO). nia. }
  assert (H1 : n * D * ap < (v + 1) * X * ONE + ONE + ap).
  { apply (Z.mul_lt_mono_pos_r ONE _ _ HO). nia. }
  split.
  - assert (q * lp * X <= v * Y * ONE * X) by (apply Z.mul_le_mono_nonneg_r; lia).
    assert (v * X * ONE * Y <= n * D * ap * Y) by (apply Z.mul_le_mono_nonneg_r; lia). nia.
  - assert (n * D * ap * Y < ((v + 1) * X * ONE + ONE + ap) * Y) by (apply Z.mul_lt_mono_pos_r; lia).
    assert (v * Y * ONE * X < (q + 1) * lp * X) by (apply Z.mul_lt_mono_pos_r; lia). nia.
Qed.

(* ---- the complete inversion (all four legs, both banks, both accounts): record liq_facts of
   coq/lemmas/LiquidationLemmas.v *)
Theorem C05_liquidation_inversion :
  forall w r e ab lb n w',
  hw_ok w -> r <> e -> h_liquidate w r e ab lb n = Ok w' ->
  exists ha hl ee er ba1 bl1 ps0 ps1 h0 A0 L0 h1 ap lp v1 v2 q_liq q_fin i1 i2 i3 i4 la1 la3
         b1 b1' b2 b2' b3 b3' b4 b4' bl2 ba2 ba3 bl3 ee3 er3 ha' hl' f,
    liq_facts w r e ab lb n w' ha hl ee er ba1 bl1 ps0 ps1 h0 A0 L0 h1 ap lp v1 v2 q_liq q_fin i1 i2 i3 i4 la1 la3
              b1 b1' b2 b2' b3 b3' b4 b4' bl2 ba2 ba3 bl3 ee3 er3 ha' hl' f.
Proof. exact h_liquidate_inv. Qed.

(* ---- non-vacuity: collateral price falls 10%, a liquidation of 10 tokens succeeds (insurance vault
   receives 224999 native units, the fraction goes to the outstanding insurance fees), the same
   liquidation before the price move is rejected; the pre-liquidation world satisfies hw_ok *)
Definition ex_bank : bank := mkBank ONE ONE 0 0 0 0 0 0 U64_MAX U64_MAX 0 6 0 0 0 0 0 1 (mkIR 0 0 0 0 0 0 0 0 0 [] 1).
Definition ex_hb : hbank :=
  mkHB ex_bank (mkRC (ONE / 2) (ONE / 2) ONE ONE 0 0 0 []) (fixed_feed ONE) 0 0 0 0 false 0 0 0.
Definition ex_w : hworld :=
  mkHW [ex_hb; ex_hb] [mkHA la_empty 0; mkHA la_empty 0] 0 (mkPF false 0 0) [[2^62; 2^62]; [2^62; 2^62]] false.
Definition ex_setup : list hop := [HDeposit 0 1 1000000000 false; HDeposit 1 0 100000000 false; HBorrow 1 1 50000000].
Example C05_nonvacuous :
  match foldM hstep (ex_setup ++ [HSetPrice 0 (9 * ONE / 10); HLiquidate 0 1 0 1 10000000]) ex_w with
  | Ok w' => map (fun hb => (hb_vault hb, hb_insv hb)) (hw_banks w')
  | Err _ => [] end = [(100000000, 0); (949775001, 224999)] /\
  is_ok (foldM hstep (ex_setup ++ [HLiquidate 0 1 0 1 10000000]) ex_w) = false /\
  match foldM hstep (ex_setup ++ [HSetPrice 0 (9 * ONE / 10)]) ex_w with Ok w => hw_ok w | Err _ => False end.
Proof.
  (* the three runs share the setup: it is evaluated once *)
  rewrite !foldM_app.
  eassert (S : foldM hstep ex_setup ex_w = _) by (vm_compute; reflexivity).
  rewrite S. cbn [bind].
  split; [vm_compute; reflexivity|]. split; [vm_compute; reflexivity|].
  vm_compute. split; repeat constructor; discriminate.
Qed.

(* the liquidation instruction sent WITHOUT the risk (bank / oracle) accounts of either party (h_liquidate is
   h_liquidate_gen with the real position loader, h_liquidate_norem the same code with the loader handed an empty account
   list) never succeeds: the health of the liquidatee cannot be established *)
Theorem C05_liquidation_without_risk_accounts_never_succeeds :
  forall w r e ab lb n w', h_liquidate_norem w r e ab lb n = Ok w' -> False.
Proof. exact liquidate_norem_never_succeeds. Qed.

Print Assumptions C05_only_unhealthy_improves_bounded.
Print Assumptions C05_liquidation_without_risk_accounts_never_succeeds.
Print Assumptions C05_precheck_alone_accepts_zero.
Print Assumptions C05_no_flip_and_overliquidation_guard.
Print Assumptions C05_liquidator_remains_initially_healthy.
Print Assumptions C05_fee_constants.
Print Assumptions C05_quantities_and_fee_split.
Print Assumptions C05_quantity_rounding_bound.
Print Assumptions C05_liquidation_inversion.

(* the hypothesis hw_ok of the handler theorems above holds in every state reachable from a well-formed world:
   HOk2 is preserved by every instruction (C01_wellformedness_preserved) and implies it *)
Theorem C05_hypothesis_holds_in_wellformed_worlds : forall w, HandlerWorld.HOk2 w -> hw_ok w.
Proof.
  intros w H. pose proof H as (_ & L & Hb). split.
  - apply Forall_forall. intros hb Hin. apply In_nth_error in Hin as (k & Hk).
    assert (Hn : nth_bank w k = Ok hb) by (unfold nth_bank, nth_res; rewrite Hk; reflexivity).
    destruct (Hb _ _ Hn) as (Hok & _). destruct (hb_ok_tot _ Hok). split; [exact (hb_ok_sv _ Hok)|split; assumption].
  - unfold accts_ok. apply Forall_forall. intros ac Hin. apply In_nth_error in Hin as (k & Hk).
    assert (Hn : nth_acct w k = Ok ac) by (unfold nth_acct, nth_res; rewrite Hk; reflexivity).
    exact (acct_wf_of _ _ _ H Hn).
Qed.

Print Assumptions C05_hypothesis_holds_in_wellformed_worlds.
