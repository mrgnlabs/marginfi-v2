(* C06 — Interest accrual conserves value, is monotone, and is applied first.
   First the accrual mathematics (Bank::accrue_interest + calc_interest_rate_accrual_state_changes),
   then "applied first" for every handler of the handler model (Handlers.v); the level-C freshness
   correspondence in the evidence of this property ties the latter to the real handlers. *)
Require Import Base Constants Fixed Curve Bank FixedLemmas BankLemmas CurveLemmas AccrualLemmas.
Require Import Risk TransferFee Handlers HandlerWorld FreshnessHandlers.
Local Open Scope Z_scope.

(* share values never decrease, fee buckets never decrease (fees are never negative), program fees
   are zero when disabled for the group, totals untouched, last_update = now *)
Theorem C06_monotone_nonneg_fees_program_fee_off :
  forall b pf now b',
  0 <= b_asv b -> 0 <= b_lsv b -> 0 <= b_tas b -> 0 <= b_tls b ->
  accrue_interest b pf now = Ok b' ->
  b_asv b <= b_asv b' /\ b_lsv b <= b_lsv b' /\
  b_ins b <= b_ins b' /\ b_grp b <= b_grp b' /\ b_prog b <= b_prog b' /\
  (pf_on pf = false -> b_prog b' = b_prog b) /\
  b_tas b' = b_tas b /\ b_tls b' = b_tls b /\ b_last_update b' = now.
Proof. exact accrue_monotone. Qed.

(* accruing twice at the same time is a no-op *)
Theorem C06_idempotent :
  forall b pf now b', 0 <= b_tls b -> 0 <= b_lsv b ->
  accrue_interest b pf now = Ok b' -> accrue_interest b' pf now = Ok b'.
Proof.
  intros b pf now b' Htl Hl H. apply accrue_inv in H; try assumption.
  assert (Hlu : b_last_update b' = now).
  { destruct H as [[E ->] | [[Hlt [-> _]] | (dt & A & L & ur & r & irl & irb & F)]]; [lia | reflexivity | exact (af_lu _ _ _ _ _ _ _ _ _ _ _ F)]. }
  unfold accrue_interest. rewrite Hlu. replace (now - now) with 0 by lia. reflexivity.
Qed.

(* conservation, solvency direction: what is credited to depositors and to the three fee buckets
   never exceeds what borrowers are charged, beyond L + total_liability_shares + irl + 1 raw units
   at scale 2^96 (L = liability amount in I80F48 bits, irl = lending interest factor for the period).
   Dv/Lv are deposits/liabilities at scale 2^96, Fv the fee buckets at scale 2^48. *)
Theorem C06_credit_le_charge_partial :
  forall b pf now b', wf_bank b -> valid_curve b -> accrue_interest b pf now = Ok b' ->
  exists irl, 0 <= irl /\ ((b' = b /\ irl = 0) \/ b_asv b' = b_asv b * (ONE + irl) / ONE \/ (b_asv b' = b_asv b /\ irl = 0)) /\
  (Dv b' - Dv b) + (Fv b' - Fv b) * ONE <= (Lv b' - Lv b) + (b_tls b * b_lsv b / ONE + b_tls b + irl + 1).
Proof. exact accrue_credit_le_charge. Qed.
(* (`_partial`: one direction of conservation; the opposite direction is the next theorem.) *)

(* conservation, opposite direction: borrowers are never charged more than what is credited to depositors and
   the three fee buckets, beyond an explicit allowance.  Stated multiplied by YEAR * ONE so that no division
   appears: allowance = (dt / YEAR) * (3 L + bor + 3 + A * (base / ONE + 1) + 3 ONE) + A + total_asset_shares + 3 ONE
   raw units at scale 2^96, where A / L are the asset / liability amounts in I80F48 bits, base / bor the base and
   borrow rates of the period (base is bounded by the curve's 100 %-utilisation rate).  For a bank with 10^16 native
   units on both sides, share values 1 and a 100 % base rate that is about 71 + 178 * dt / YEAR native units. *)
Theorem C06_charge_le_credit :
  forall b pf now b', wf_bank b -> valid_curve b -> accrue_interest b pf now = Ok b' ->
  exists base bor A L dt, 0 <= base <= Rf (ir_hundred (b_ir b)) /\ 0 <= bor /\
    A = b_tas b * b_asv b / ONE /\ L = b_tls b * b_lsv b / ONE /\ dt = now - b_last_update b /\ 0 <= dt /\
    (b_last_update b < now -> A <> 0 -> L <> 0 ->
       exists ur r, calc_interest_rate (b_ir b) pf ur = Ok r /\ r_base r = base /\ r_borrowing r = bor) /\
    ((Lv b' - Lv b) - (Dv b' - Dv b) - (Fv b' - Fv b) * ONE) * YEAR * ONE
    <= dt * (ONE * (3 * L + bor + 3) + A * (base + ONE) + 3 * ONE * ONE) + (A + b_tas b + 3 * ONE) * YEAR * ONE.
Proof.
  intros b pf now b' Hwf Hvc H. pose proof Hwf as (Ha & Hl & Hta & Htl). pose proof ONE_pos as HO. pose proof YEAR_pos as HY.
  pose proof Hvc as ((Hz & Hh & _) & _). pose proof (Rf_range _ Hh).
  destruct (accrue_split _ _ _ _ Hwf Hvc H) as [(_ & Ex & _ & _ & Hlu & Hno) | (dt & A & L & ur & r & irl & irb & F & Hbase)].
  - exists 0, 0, (b_tas b * b_asv b / ONE), (b_tls b * b_lsv b / ONE), (now - b_last_update b).
    assert (0 <= b_tas b * b_asv b / ONE) by (apply amount_nonneg; lia).
    assert (0 <= b_tls b * b_lsv b / ONE) by (apply amount_nonneg; lia).
    do 6 (split; [lia|]). split; [tauto|]. fold (excess b b'). rewrite Ex.
    apply Z.add_nonneg_nonneg; repeat apply Z.mul_nonneg_nonneg; lia.
  - destruct (accrue_facts_conserve _ _ _ _ _ _ _ _ _ _ _ Hwf (proj1 Hbase) F) as [_ C].
    pose proof (rf_bor0 _ _ _ _ (calc_interest_rate_facts _ _ _ _ (af_rates _ _ _ _ _ _ _ _ _ _ _ F))).
    destruct F as [[Hdt Hdt0] [HA _] [HL _] _ Hr _ _ _ _ _ _ _ _ _].
    exists (r_base r), (r_borrowing r), A, L, dt. repeat (split; [first [assumption | lia]|]).
    split; [intros _ _ _; exists ur, r; auto | exact C].
Qed.

Definition ex_bank : bank :=
  mkBank ONE ONE (1000000 * ONE) (500000 * ONE) 0 0 0 1000 U64_MAX U64_MAX 0 6 0 0 0 0 0 1
         (mkIR 0 0 0 (ONE / 100) (ONE / 10) (ONE / 100) (ONE / 10) 0 429496729 [mkRP 2147483648 214748364] 1).
Example C06_nonvacuous :
  exists b', accrue_interest ex_bank (mkPF true (ONE / 100) (ONE / 20)) (1000 + 86400) = Ok b' /\
             b_asv ex_bank < b_asv b' /\ b_lsv ex_bank < b_lsv b' /\ 0 < b_ins b' /\ 0 < b_prog b' /\
             validate_seven_point (b_ir ex_bank) = Ok tt.
Proof. vm_compute. eexists; split; [reflexivity|]. repeat split; reflexivity. Qed.

Print Assumptions C06_monotone_nonneg_fees_program_fee_off.
Print Assumptions C06_idempotent.
Print Assumptions C06_credit_le_charge_partial.
Print Assumptions C06_charge_le_credit.

(* "every deposit, withdrawal, borrow, repayment, liquidation, bankruptcy settlement and balance closure first
   brings the interest of each bank it transacts in up to the current time" — at instruction level (Handlers.v).
   fresh_after w hb hb' d: the accrual of the pre-instruction bank at the instruction's clock succeeds with result
   bk1, and the bank after the instruction is stamped last_update = clock, has liability share value = that of bk1
   and asset share value = that of bk1 (d = true: <=, bankruptcy may socialise a loss).  HOk2 is the world
   well-formedness invariant proved preserved in C01. *)
Theorem C06_deposit_accrues_first :
  forall w a b n up w' hb hb', HOk2 w -> 0 <= n -> h_deposit w a b n up = Ok w' ->
  nth_bank w b = Ok hb -> nth_bank w' b = Ok hb' -> fresh_after w hb hb' false.
Proof. exact deposit_fresh. Qed.
Theorem C06_withdraw_accrues_first :
  forall w a b n all w' hb hb', HOk2 w -> 0 <= n -> h_withdraw w a b n all = Ok w' ->
  nth_bank w b = Ok hb -> nth_bank w' b = Ok hb' -> fresh_after w hb hb' false.
Proof. exact withdraw_fresh. Qed.
Theorem C06_borrow_accrues_first :
  forall w a b n w' hb hb', HOk2 w -> 0 <= n -> h_borrow w a b n = Ok w' ->
  nth_bank w b = Ok hb -> nth_bank w' b = Ok hb' -> fresh_after w hb hb' false.
Proof. exact borrow_fresh. Qed.
Theorem C06_repay_accrues_first :
  forall w a b n all w' hb hb', HOk2 w -> 0 <= n -> h_repay w a b n all = Ok w' ->
  nth_bank w b = Ok hb -> nth_bank w' b = Ok hb' -> fresh_after w hb hb' false.
Proof. exact repay_fresh. Qed.
Theorem C06_close_balance_accrues_first :
  forall w a b w' hb hb', HOk2 w -> h_close_balance w a b = Ok w' ->
  nth_bank w b = Ok hb -> nth_bank w' b = Ok hb' -> fresh_after w hb hb' false.
Proof. exact close_balance_fresh. Qed.
Theorem C06_bankruptcy_accrues_first :
  forall w a b w' hb hb', HOk2 w -> h_bankruptcy w a b = Ok w' ->
  nth_bank w b = Ok hb -> nth_bank w' b = Ok hb' -> fresh_after w hb hb' true.
Proof. exact bankruptcy_fresh. Qed.
Theorem C06_liquidation_accrues_both_banks_first :
  forall w liqor liqee ab lb n w' ha hl ha' hl', HOk2 w -> 0 <= n ->
  h_liquidate w liqor liqee ab lb n = Ok w' ->
  nth_bank w ab = Ok ha -> nth_bank w lb = Ok hl -> nth_bank w' ab = Ok ha' -> nth_bank w' lb = Ok hl' ->
  fresh_after w ha ha' false /\ fresh_after w hl hl' false.
Proof. exact liquidate_fresh. Qed.

Print Assumptions C06_deposit_accrues_first.
Print Assumptions C06_withdraw_accrues_first.
Print Assumptions C06_borrow_accrues_first.
Print Assumptions C06_repay_accrues_first.
Print Assumptions C06_close_balance_accrues_first.
Print Assumptions C06_bankruptcy_accrues_first.
Print Assumptions C06_liquidation_accrues_both_banks_first.
