(* C16 — Account structure: one side per bank, sorted, compatible tags, bounded; closing, disabling,
   transferring.
   Models: coq/model/Bank.v + BankOps.v (BankAccountWrapper state machine, level B: bstep / brun),
   coq/model/Handlers.v (instruction handlers deposit / withdraw(all) / borrow / repay(all) /
   close_balance / liquidate (four legs) / bankruptcy / accrue / collect fees, level C: hstep / hrun),
   coq/model/AcctLifecycle.v (marginfi_account_close, transfer_to_new_account), coq/model/Tx.v
   (check_flashloan_can_start).
   WH w  : every account of the handler-level world w satisfies the structure spelled out in
           C16_structure_meaning, relative to htags w = the asset tags of the banks.
   WB w  : the same at wrapper level, without the two clauses that only handlers establish
           (validate_asset_tags, sort_balances).
   Quantification: all worlds satisfying the invariant (any number of banks and accounts, any bank
   state), all operations with all arguments, all sequences of any length (failed operations roll
   back, as a failed transaction does). *)
Require Import Base Constants TxConstants Fixed Curve Bank BankOps Risk TransferFee Handlers AcctLifecycle.
Require Import FixedLemmas BankLemmas HandlerLemmas HandlerEffects StructLemmas AcctLifecycleLemmas.
Require Tx.
Local Open Scope Z_scope.

(* every successful instruction preserves the structure of every account and no bank's asset tag *)
Theorem C16_structure_preserved_by_every_instruction :
  forall w o w', WH w -> hstep w o = Ok w' -> WH w' /\ htags w' = htags w.
Proof. intros w o w' Hw H. apply hstep_eff in H. split; [exact (Eff_WH _ _ H Hw) | apply H]. Qed.

(* ... hence after every sequence of instructions *)
Theorem C16_structure_all_histories :
  forall ops w, WH w -> WH (hrun w ops) /\ htags (hrun w ops) = htags w.
Proof. intros ops w Hw. pose proof (hrun_eff ops w) as H. split; [exact (Eff_WH _ _ H Hw) | apply H]. Qed.

(* what WH says about each account: 16 slots; at most one active slot per bank; at most 8 active
   integration (Kamino / Drift / Solend) slots; an active slot's key is a bank of the world and its
   tag is that bank's tag (so it never changes: htags is constant); inactive slots have key 0;
   never an active staked slot together with an active default-class slot; active slots form a
   prefix of the array in strictly descending key order (what the risk engine walks) *)
Theorem C16_structure_meaning :
  forall w a ac, WH w -> nth_error (hw_accts w) a = Some ac ->
  let la := ha_la ac in let T := htags w in
  (length la = 16%nat /\
   (forall i j bi bj, nth_error la i = Some bi -> nth_error la j = Some bj ->
      bl_active bi = true -> bl_active bj = true -> bl_bank bi = bl_bank bj -> i = j) /\
   Z.of_nat (length (filter (fun bl => bl_active bl && is_integration_tag (bl_tag bl)) la)) <= 8 /\
   (forall bl, In bl la -> bl_active bl = true ->
      exists n, bl_bank bl = Z.of_nat n + 1 /\ nth_error T n = Some (bl_tag bl)) /\
   (forall bl, In bl la -> bl_active bl = false -> bl_bank bl = 0)) /\
  ~ (exists s d, In s la /\ In d la /\ bl_active s = true /\ bl_active d = true /\
       bl_tag s = ASSET_TAG_STAKED /\ is_default_like (bl_tag d) = true) /\
  (forall i j bi bj, (i < j)%nat -> nth_error la i = Some bi -> nth_error la j = Some bj ->
     bl_active bj = true -> bl_active bi = true /\ bl_bank bj < bl_bank bi).
Proof.
  intros w a ac Hw Hn. cbv zeta. destruct (Forall_nth_error _ _ _ _ Hw Hn) as (S & N & D).
  split; [exact (structB_meaning _ _ S)|]. split.
  - intros (s & d & Hs & Hd & As & Ad & Ts & Td). apply N. split.
    + apply (in_view bl_tag). exists s. auto.
    + exists (bl_tag d). split; [apply (in_view bl_tag); exists d; auto | exact Td].
  - (* sorted by key, inactive keys are 0 and active ones positive: the active slots come first; their keys differ *)
    intros i j bi bj Hij Hi Hj Aj.
    destruct (desc_prefix _ _ i j bi bj (sb_slots _ _ S) D Hij Hi Hj Aj) as [Ai Hle]. split; [exact Ai|].
    destruct (Z.eq_dec (bl_bank bi) (bl_bank bj)) as [E|E]; [|lia].
    pose proof (nodup_slots _ i j bi bj (sb_nodup _ _ S) Hi Hj Ai Aj E). lia.
Qed.

(* worlds with fresh accounts satisfy the invariant, whatever the banks *)
Theorem C16_initial_world :
  forall banks n now pf utok ras, WH (mkHW banks (repeat (mkHA la_empty 0) n) now pf utok ras).
Proof.
  intros. apply Forall_forall. intros x Hx. apply repeat_spec in Hx. subst x.
  split; [apply StructB_empty|]. split; [intros (S & _); exact S | apply desc_repeat].
Qed.

Theorem C16_wrapper_structure_all_histories :
  forall ops w, WB w -> WB (brun w ops) /\ btags (brun w ops) = btags w.
Proof.
  induction ops as [|o ops IH]; intros w Hw; cbn [brun fold_left]; [split; [exact Hw|reflexivity]|].
  change (fold_left bstep_total ops (bstep_total w o)) with (brun (bstep_total w o) ops).
  unfold bstep_total. destruct (bstep w o) as [[w' r]|e] eqn:E; [|apply IH, Hw].
  apply bstep_struct in E as [Hw' HT]; [|exact Hw]. destruct (IH w' Hw') as [H1 H2]. split; [exact H1 | congruence].
Qed.

Theorem C16_wrapper_structure_meaning :
  forall w a la, WB w -> nth_error (bw_accts w) a = Some la ->
  length la = 16%nat /\
  (forall i j bi bj, nth_error la i = Some bi -> nth_error la j = Some bj ->
     bl_active bi = true -> bl_active bj = true -> bl_bank bi = bl_bank bj -> i = j) /\
  Z.of_nat (length (filter (fun bl => bl_active bl && is_integration_tag (bl_tag bl)) la)) <= 8 /\
  (forall bl, In bl la -> bl_active bl = true ->
     exists n, bl_bank bl = Z.of_nat n + 1 /\ nth_error (btags w) n = Some (bl_tag bl)) /\
  (forall bl, In bl la -> bl_active bl = false -> bl_bank bl = 0).
Proof. intros w a la Hw Hn. exact (structB_meaning _ _ (Forall_nth_error _ _ _ _ Hw Hn)). Qed.

Theorem C16_wrapper_initial_world :
  forall banks n now pf, WB (mkBW banks (repeat la_empty n) now pf).
Proof. intros. apply Forall_forall. intros x Hx. apply repeat_spec in Hx. subst x. apply StructB_empty. Qed.

(* sort_balances: a permutation of the slots, in descending key order *)
Theorem C16_sort_sorts :
  forall la, Permutation.Permutation (sort_balances la) la /\ Sorted.Sorted Z.ge (map bl_bank (sort_balances la)).
Proof. intros la. exact (conj (sort_perm la) (sort_sorted la)). Qed.

(* one step, any balance-increase type (deposit / repay / liquidation credit): if the position was
   one-sided (asset amount or liability amount at most 0.0001 = ZERO_AMOUNT_THRESHOLD) it still is;
   assumes shares >= 0, amount >= 0 and a liability share value in (0, 10^6] *)
Theorem C16_increase_keeps_one_side :
  forall b bl now d t b' bl', wf_sv b -> wf_bal bl -> 0 <= d -> b_lsv b <= 2 ^ 48 * 10 ^ 6 ->
  increase_balance b bl now d t = Ok (b', bl') -> one_sided b bl -> one_sided b' bl'.
Proof.
  intros b bl now d t b' bl' Hsv Hwf Hd Hb H Hos. apply inc_shape in H as (Ea & El & M); try assumption.
  unfold one_sided in *. rewrite Ea, El. apply or_comm. apply or_comm in Hos.
  refine (moved_value _ _ _ _ _ _ _ M Hos). destruct Hsv. lia.
Qed.

Theorem C16_decrease_keeps_one_side :
  forall b bl now d t b' bl', wf_sv b -> wf_bal bl -> 0 <= d -> b_asv b <= 2 ^ 48 * 10 ^ 6 ->
  decrease_balance b bl now d t = Ok (b', bl') -> one_sided b bl -> one_sided b' bl'.
Proof.
  intros b bl now d t b' bl' Hsv Hwf Hd Hb H Hos. apply dec_shape in H as (Ea & El & M); try assumption.
  unfold one_sided in *. rewrite Ea, El. refine (moved_value _ _ _ _ _ _ _ M Hos). destruct Hsv. lia.
Qed.

(* all histories of one position (any interleaving of increase / decrease of every type, withdraw_all,
   repay_all, close, claim; the bank may be ANY bank state at each step — accrual, other users —
   with share values >= 1.0): starting with at most 2 share-ulps on one side, the position never
   holds a deposit worth >= 0.0001 together with a debt worth >= 0.0001, valued at any share
   values up to 10^6 *)
Theorem C16_one_side_per_position_all_histories :
  forall l bl bl' b,
  Forall sv_range l -> wf_bal bl -> dust_sh 2 bl -> slot_run bl l = Ok bl' ->
  0 <= b_asv b <= 2 ^ 48 * 10 ^ 6 -> 0 <= b_lsv b <= 2 ^ 48 * 10 ^ 6 ->
  ~ (ZERO_AMOUNT_THRESHOLD <= bl_a bl' * b_asv b / ONE /\ ZERO_AMOUNT_THRESHOLD <= bl_l bl' * b_lsv b / ONE).
Proof.
  intros l bl bl' b Hl Hwf Hd H Ha Hls.
  assert (E : ONE / ONE + 1 = 2) by (rewrite Z.div_same; [reflexivity | rewrite ONE_val; lia]).
  assert (Hl' : Forall (sv_ge ONE) l).
  { eapply Forall_impl; [|exact Hl]. intros x (A & B & C). unfold sv_ge. change ONE with (2 ^ 48). auto. }
  pose proof (slot_run_dust ONE l ONE_pos Hl' bl bl' Hwf) as R. rewrite E in R.
  destruct (R Hd H) as [[W1 W2] D]. intros [X Y]. destruct D as [D|D].
  - pose proof (dust_value (bl_a bl') (b_asv b) ltac:(lia) Ha). lia.
  - pose proof (dust_value (bl_l bl') (b_lsv b) ltac:(lia) Hls). lia.
Qed.

(* the same for share values bounded below by any m > 0 (banks after a socialised loss):
   one side keeps at most 2^48/m + 1 share-ulps *)
Theorem C16_one_side_shares_all_histories :
  forall m l, 0 < m -> Forall (sv_ge m) l -> forall bl bl',
  wf_bal bl -> dust_sh (ONE / m + 1) bl -> slot_run bl l = Ok bl' -> wf_bal bl' /\ dust_sh (ONE / m + 1) bl'.
Proof. exact slot_run_dust. Qed.

Theorem C16_disabled_cannot_act :
  forall w a ac, nth_acct w a = Ok ac -> aflag ac ACCOUNT_DISABLED = true ->
  (forall b n u, exists e, h_deposit w a b n u = Err e) /\
  (forall b n all, exists e, h_withdraw w a b n all = Err e) /\
  (forall b n, exists e, h_borrow w a b n = Err e) /\
  (forall b n all, exists e, h_repay w a b n all = Err e) /\
  (forall b, exists e, h_close_balance w a b = Err e).
Proof.
  (* each handler tests the flag of the account it loads, after a few checks that look at the bank only *)
  intros w a ac Hac Hd. repeat split; intros.
  - unfold h_deposit. rewrite Hac. apply bind_err_intro; intros hb. cbn [bind]. do 4 (apply bind_err_intro; intros _). rewrite Hd. eexists; reflexivity.
  - unfold h_withdraw. rewrite Hac. apply bind_err_intro; intros hb. cbn [bind]. apply bind_err_intro; intros _. rewrite Hd. eexists; reflexivity.
  - unfold h_borrow. rewrite Hac. apply bind_err_intro; intros hb. cbn [bind]. do 2 (apply bind_err_intro; intros _). rewrite Hd. eexists; reflexivity.
  - unfold h_repay. rewrite Hac. apply bind_err_intro; intros hb. cbn [bind]. apply bind_err_intro; intros _. rewrite Hd. eexists; reflexivity.
  - unfold h_close_balance. rewrite Hac. apply bind_err_intro; intros hb. cbn [bind]. apply bind_err_intro; intros _. rewrite Hd. eexists; reflexivity.
Qed.

Theorem C16_bankruptcy_disables :
  forall w a b w', h_bankruptcy w a b = Ok w' ->
  exists ac', nth_acct w' a = Ok ac' /\ aflag ac' ACCOUNT_DISABLED = true.
Proof.
  intros w a b w' H. apply h_bankruptcy_shape in H as (hb & hb' & ac & i & bl & bl3 & (_ & Ha & _ & Ea & _) & _).
  eexists. split; [exact (nth_acct_of_eq _ _ _ _ _ Ea Ha)|].
  unfold aflag. cbn [ha_flags]. rewrite land_lor_absorb. apply Z.eqb_refl.
Qed.

Theorem C16_disabled_forever :
  forall ops w a ac, nth_error (hw_accts w) a = Some ac -> aflag ac ACCOUNT_DISABLED = true ->
  exists ac', nth_error (hw_accts (hrun w ops)) a = Some ac' /\ aflag ac' ACCOUNT_DISABLED = true.
Proof. intros ops w a ac. exact (Eff_disabled _ _ a ac (hrun_eff ops w)). Qed.

Theorem C16_disabled_cannot_start_flashloan :
  forall fl key ixes cur end_idx cpi,
  Tx.f_disabled fl = true -> Tx.check_flashloan_can_start fl key ixes cur end_idx cpi <> Ok tt.
Proof.
  intros fl key ixes cur end_idx cpi Hd H. unfold Tx.check_flashloan_can_start in H.
  do 3 (apply bind_ok in H as (? & _ & H)).
  destruct (Tx.nth_z ixes end_idx) as [e|]; [|discriminate].
  destruct (Tx.d_len e <? 8); [discriminate|].
  do 2 (apply bind_ok in H as (? & _ & H)).
  destruct (Tx.d_accts e) as [|k0 r]; [discriminate|].
  apply bind_ok in H as (u5 & _ & H). apply bind_ok in H as (u6 & Hc & H). apply check_ok in Hc.
  rewrite Hd in Hc. discriminate.
Qed.

(* close succeeds exactly when: the account exists, the signer is its authority, it is not frozen,
   not disabled, not in a flash loan, not in receivership, and every one of its slots holds fewer
   than EMPTY_BALANCE_THRESHOLD (1.0) shares on both sides; the account is then removed *)
Theorem C16_close_iff :
  forall w a signer w',
  h_close w a signer = Ok w' <->
  exists A, get_macct w a = Ok A /\
    (ma_authority A = signer /\ mflag A ACCOUNT_FROZEN = false /\ mflag A ACCOUNT_DISABLED = false /\
     mflag A ACCOUNT_IN_FLASHLOAN = false /\ mflag A ACCOUNT_IN_RECEIVERSHIP = false /\
     Forall (fun bl => bl_a bl < EMPTY_BALANCE_THRESHOLD /\ bl_l bl < EMPTY_BALANCE_THRESHOLD) (ma_la A)) /\
    w' = set_macct w a None.
Proof. exact close_iff. Qed.

(* a successful transfer: the destination address held no account; afterwards it holds the whole
   lending account and the flags of the source, the source is emptied, disabled and marked migrated,
   and no other address changes (record `transferred`, AcctLifecycleLemmas.v) *)
Theorem C16_transfer_moves_everything_to_one_new_account :
  forall w old new signer na fw w',
  h_transfer w old new signer na fw = Ok w' -> transferred w w' old new na.
Proof. exact transfer_spec. Qed.

(* ... once: after it, for every later sequence of instructions, the source can neither be
   transferred again nor closed *)
Theorem C16_transfer_once :
  forall w old new signer na fw w' ops,
  h_transfer w old new signer na fw = Ok w' -> Forall real_op ops ->
  (forall new2 s2 na2 fw2, exists e, h_transfer (lrun w' ops) old new2 s2 na2 fw2 = Err e) /\
  (forall s2, exists e, h_close (lrun w' ops) old s2 = Err e).
Proof.
  intros w old new signer na fw w' ops H Hops. apply transfer_retires in H.
  destruct (retired_run ops Hops w' old H) as (A & HA & Hm & Hd).
  split; intros; [eapply migrated_no_transfer | eapply disabled_no_close]; eauto.
Qed.

Definition ex_bank (tag : Z) : bank :=
  mkBank ONE ONE 0 0 0 0 0 0 U64_MAX U64_MAX tag 6 0 0 0 0 0 1 (mkIR 0 0 0 0 0 0 0 0 0 [] 1).
Definition ex_world (tag : Z) : bworld := mkBW (repeat (ex_bank tag) 17) [la_empty] 0 (mkPF false 0 0).
Definition ex_deposits (n : nat) : list bop := map (fun b => BDeposit 0 b (of_int 5)) (seq 0 n).
Definition ex_acct : macct := mkMA la_empty 0 7 1 0 0 0 0.
Definition ex_lw : lworld := mkLW [Some ex_acct; None; None] 1 9 false 5 100.

Example C16_nonvacuous :
  (* 8 Kamino positions open, the 9th is refused; 16 default positions open, the 17th is refused *)
  length (filter bl_active (nth 0 (bw_accts (brun (ex_world ASSET_TAG_KAMINO) (ex_deposits 8))) [])) = 8%nat /\
  bstep (brun (ex_world ASSET_TAG_KAMINO) (ex_deposits 8)) (BDeposit 0 8 (of_int 5)) = Err (E E_IntegrationPositionLimitExceeded) /\
  length (filter bl_active (nth 0 (bw_accts (brun (ex_world ASSET_TAG_DEFAULT) (ex_deposits 16))) [])) = 16%nat /\
  bstep (brun (ex_world ASSET_TAG_DEFAULT) (ex_deposits 16)) (BDeposit 0 16 (of_int 5)) = Err (E E_LendingAccountBalanceSlotsFull) /\
  (* an empty account can be closed; after a transfer the source can be neither transferred nor closed *)
  is_ok (h_close ex_lw 0 7) = true /\
  is_ok (h_transfer ex_lw 0 1 7 8 5) = true /\
  h_transfer (lrun ex_lw [LTransfer 0 1 7 8 5]) 0 2 7 8 5 = Err (E E_AccountAlreadyMigrated) /\
  h_close (lrun ex_lw [LTransfer 0 1 7 8 5]) 0 7 = Err (E E_IllegalAction) /\
  is_ok (h_close (lrun ex_lw [LTransfer 0 1 7 8 5]) 1 8) = true.
Proof. vm_compute. repeat split; reflexivity. Qed.

Print Assumptions C16_structure_preserved_by_every_instruction.
Print Assumptions C16_structure_all_histories.
Print Assumptions C16_structure_meaning.
Print Assumptions C16_initial_world.
Print Assumptions C16_wrapper_structure_all_histories.
Print Assumptions C16_wrapper_structure_meaning.
Print Assumptions C16_wrapper_initial_world.
Print Assumptions C16_sort_sorts.
Print Assumptions C16_increase_keeps_one_side.
Print Assumptions C16_decrease_keeps_one_side.
Print Assumptions C16_one_side_per_position_all_histories.
Print Assumptions C16_one_side_shares_all_histories.
Print Assumptions C16_disabled_cannot_act.
Print Assumptions C16_bankruptcy_disables.
Print Assumptions C16_disabled_forever.
Print Assumptions C16_disabled_cannot_start_flashloan.
Print Assumptions C16_close_iff.
Print Assumptions C16_transfer_moves_everything_to_one_new_account.
Print Assumptions C16_transfer_once.
