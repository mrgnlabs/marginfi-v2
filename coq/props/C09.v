(* C09 — Oracle safety: only fresh, authentic, confident prices, biased conservatively.
   Quantification: every OracleSetup value, every account list, every abstract oracle account (key, owner,
   body incl. malformed bodies), every clock, every configured max age / max confidence, every price /
   confidence / exponent integer.  PYTH_RECEIVER_ID / SWITCHBOARD_PULL_ID are the two expected owners. *)
Require Import Base Constants Fixed Price FixedLemmas NumLemmas PriceLemmas.
From Coq Require Import ZifyBool.
Local Open Scope Z_scope.

(* With the bank's own max age (u16; 0 means 60 s for a plain Pyth bank): a feed loads only from the
   configured key, owned by the expected program, of the right type, fully verified (Pyth), and
   now - publish_time <= max_age (Pyth) / now - last_update <= max_age (Switchboard). *)
Theorem C09_authentic_and_fresh :
  forall c ais vn sk ck f,
  0 <= oc_max_age c <= 65535 ->
  (forall a m, In a ais -> oa_body a = BPyth m -> - 2^63 <= pm_publish m) ->
  px_try_from_bank c ais vn sk ck = Ok f ->
  (oc_setup c = OS_Fixed /\ ais = [] /\ f = FFixed (oc_fixed_price c) /\ 0 <= oc_fixed_price c) \/
  exists a rest, ais = a :: rest /\ oa_key a = oc_key0 c /\
    let max_age := if (oc_max_age c =? 0) && (oc_setup c =? OS_PythPushOracle) then 60 else oc_max_age c in
    ((In (oc_setup c) pyth_setups /\ oa_owner a = PYTH_RECEIVER_ID /\
      exists m, oa_body a = BPyth m /\ pm_full m = true /\ ck_now ck - pm_publish m <= max_age) \/
     (In (oc_setup c) swb_setups /\ oa_owner a = SWITCHBOARD_PULL_ID /\
      exists m, oa_body a = BSwb m /\ ck_now ck - sm_last_update m <= max_age)).
Proof.
  intros c ais vn sk ck f Hr Hp H. unfold px_try_from_bank, px_oracle_max_age in H. change MAX_PYTH_ORACLE_AGE with 60 in H.
  apply load_authentic in H as [H | (a & rest & -> & Hk & H)]; [left; exact H | right].
  exists a, rest. split; [reflexivity|]. split; [assumption|]. cbv zeta.
  set (ma := if (oc_max_age c =? 0) && (oc_setup c =? OS_PythPushOracle) then 60 else oc_max_age c) in *.
  assert (Hma : 0 <= ma <= 65535) by (subst ma; destruct (_ && _); lia).
  destruct H as [[Hs (Ho & m & Hb & Hf & _ & Hfresh)] | [Hs (Ho & m & Hb & Hfresh)]]; [left | right];
    (split; [assumption|]); (split; [assumption|]); exists m.
  - repeat split; try assumption. apply pyth_fresh; try lia. apply (Hp a m); [left; reflexivity | assumption].
  - split; [assumption|]. apply swb_fresh; rewrite ?I64_MAX_val, ?U64_MAX_val; lia.
Qed.

(* With an explicit max age (any u64): the raw conditions, exactly as evaluated (saturating add for
   Pyth after a u64 -> i64 conversion that aborts above i64::MAX; saturating subtraction against a
   wrapping cast for Switchboard) ... *)
Theorem C09_authentic_any_max_age :
  forall c ais vn sk ck max_age f,
  px_try_from_bank_with_max_age c ais vn sk ck max_age = Ok f ->
  (oc_setup c = OS_Fixed /\ ais = [] /\ f = FFixed (oc_fixed_price c) /\ 0 <= oc_fixed_price c) \/
  first_account_accepted c ais (ck_now ck) max_age.
Proof. exact load_authentic. Qed.

(* ... and what they mean in plain arithmetic. *)
Theorem C09_staleness_inequalities :
  (forall now publish max_age, - 2^63 <= publish -> 0 <= max_age ->
     now <= sat_i64 (publish + max_age) -> now - publish <= max_age) /\
  (forall now last max_age, 0 <= max_age -> max_age <> 2^63 - 1 -> max_age <= 2^64 - 1 ->
     sat_i64 (now - last) <= wrap_s 64 max_age -> now - last <= max_age).
Proof. split; [exact pyth_fresh | exact swb_fresh]. Qed.

(* The plain setups return exactly the numbers stored in the authenticated account. *)
Theorem C09_plain_setups_exact :
  forall c ais vn sk ck max_age f,
  px_try_from_bank_with_max_age c ais vn sk ck max_age = Ok f ->
  (oc_setup c = OS_PythPushOracle ->
     exists a m, ais = [a] /\ oa_body a = BPyth m /\
       f = FPyth (pm_price m) (pm_conf m) (pm_expo m) (pm_ema_price m) (pm_ema_conf m)) /\
  (oc_setup c = OS_SwitchboardPull ->
     exists a m, ais = [a] /\ oa_body a = BSwb m /\ f = FSwb (sm_value m) (sm_std_dev m)).
Proof.
  intros c ais vn sk ck max_age f H. split; intros Es; unfold px_try_from_bank_with_max_age in H; rewrite Es in H;
    cbn [Z.eqb OS_None OS_PythPushOracle OS_SwitchboardPull Pos.eqb] in H;
    destruct ais as [|a [|? ?]]; try discriminate.
  - apply bind_check in H as [_ H]. apply bind_check in H as [_ H].
    apply pyth_load_inv in H as [_ (m & Hb & ->)]. exists a, m. auto.
  - apply bind_check in H as [_ H]. apply swb_load_inv in H as [_ (m & Hb & ->)]. exists a, m. auto.
Qed.

(* Exchange-rate-adjusted variants: the second account is the configured one, accepted by its loader
   and refreshed (Kamino/Solend: in this slot; Drift: at this timestamp). *)
Theorem C09_venue_account_checked :
  forall c ais vn sk ck max_age f,
  px_try_from_bank_with_max_age c ais vn sk ck max_age = Ok f ->
  In (oc_setup c) venue_setups ->
  exists a a1, ais = [a; a1] /\ oa_key a1 = oc_key1 c /\ vn_loader vn = VLOk /\
    ((oc_setup c = OS_DriftPythPull \/ oc_setup c = OS_DriftSwitchboardPull) /\ ck_now ck <= wrap_s 64 (vn_last vn) \/
     (oc_setup c <> OS_DriftPythPull /\ oc_setup c <> OS_DriftSwitchboardPull) /\ ck_slot ck <= vn_last vn).
Proof.
  intros c ais vn sk ck max_age f H Hin. unfold px_try_from_bank_with_max_age in H.
  destruct Hin as [Es|[Es|[Es|[Es|[Es|[Es|[]]]]]]]; rewrite <- Es in *;
    cbn [Z.eqb Pos.eqb OS_None OS_PythPushOracle OS_SwitchboardPull OS_StakedWithPythPush OS_KaminoPythPush
         OS_KaminoSwitchboardPull OS_Fixed OS_DriftPythPull OS_DriftSwitchboardPull OS_SolendPythPull
         OS_SolendSwitchboardPull] in H;
    destruct ais as [|a [|a1 [|? ?]]]; try discriminate; exists a, a1; (split; [reflexivity|]).
  (* Solend with a Pyth feed checks the first key last; the other five arms open alike *)
  5: { apply bind_check in H as [Hk1 H]. apply loader_bind in H as [Hl H]. apply bind_check in H as [Hs _].
       split; [lia|]. split; [assumption|]. right. repeat split; (discriminate || lia). }
  all: apply venue_checks_inv in H as (_ & Hk1 & Hl & Hs & _); (split; [lia|]); (split; [assumption|]).
  1, 2, 5: right; repeat split; (discriminate || lia).
  - left. split; [left; reflexivity | lia].
  - left. split; [right; reflexivity | lia].
Qed.

Theorem C09_staked_accounts_checked :
  forall c ais vn sk ck max_age f,
  px_try_from_bank_with_max_age c ais vn sk ck max_age = Ok f ->
  oc_setup c = OS_StakedWithPythPush ->
  exists a a1 a2 supply stake, ais = [a; a1; a2] /\ oa_key a1 = oc_key1 c /\ oa_key a2 = oc_key2 c /\
    sk_supply sk = Ok supply /\ 0 < supply /\ sk_stake sk = Ok stake /\ 1000000000 <= stake.
Proof.
  intros c ais vn sk ck max_age f H Es. unfold px_try_from_bank_with_max_age in H. rewrite Es in H.
  cbn [Z.eqb Pos.eqb OS_None OS_PythPushOracle OS_SwitchboardPull OS_StakedWithPythPush] in H.
  destruct ais as [|a [|a1 [|a2 [|? ?]]]]; try discriminate.
  apply bind_check in H as [Hk12 H]. apply bind_ok in H as (supply & Hsup & H). apply bind_check in H as [Hpos H].
  apply bind_ok in H as (stake & Hst & H). apply bind_ok in H as (adj & Hadj & _).
  apply ok_or_inv, chko_inv in Hadj as [_ Hr]. apply in_range_iff in Hr. unfold LAMPORTS_PER_SOL in Hr.
  exists a, a1, a2, supply, stake. repeat split; (assumption || lia).
Qed.

(* A biased price exists only if price >= 0 and  scaled_conf / price <= max_conf / u32::MAX, where a
   configured maximum of 0 means 429496730 / 4294967295 (10%). *)
Theorem C09_confidence_within_maximum :
  forall f t b omc p,
  0 <= omc -> is_fixed f = false ->
  px_price_of_type f t (Some b) omc = Ok p ->
  exists price ci, px_price f t = Ok price /\ px_scaled_conf f t = Ok ci /\
    0 <= price /\ 0 <= ci /\
    ci * 4294967295 <= price * (if 0 <? omc then omc else 429496730).
Proof.
  intros f t b omc p Ho Hf H. apply biased_inv in H as (price & ci & H1 & H2 & _ & H4 & H5 & H6 & _); try assumption.
  exists price, ci. auto.
Qed.

(* scaled confidence = reported confidence x 2.12 (Pyth) / reported std-dev x 1.96 (Switchboard), floored *)
Theorem C09_scaled_confidence :
  forall f t ci,
  px_scaled_conf f t = Ok ci ->
  match f with
  | FPyth p c e ep ec =>
      exists c0, px_pyth_components (of_int (match t with TimeWeighted => ec | RealTime => c end)) e = Ok c0 /\
                 ci = c0 * CONF_INTERVAL_MULTIPLE / 2^48
  | FSwb v s =>
      exists s0, cdiv (px_from_i128 s) (10 ^ 18 * 2^48) = Ok s0 /\ ci = s0 * STD_DEV_MULTIPLE / 2^48
  | FFixed _ => ci = 0
  end.
Proof.
  intros f t ci.
  destruct f; cbn [px_scaled_conf]; intros H.
  - apply bind_ok in H as (c0 & Hc0 & H). apply ok_or_inv, cmul_inv in H as [-> _]. eauto.
  - apply bind_ok in H as (sf & Hsf & H). apply exp10_inv in Hsf as [_ ->].
    apply bind_ok in H as (s0 & Hs0 & H). apply ok_or_inv in Hs0. apply ok_or_inv, cmul_inv in H as [-> _]. eauto.
  - apply Ok_inj in H. auto.
Qed.

Theorem C09_constants :
  Z.abs (100 * CONF_INTERVAL_MULTIPLE - 212 * 2^48) < 100 /\
  Z.abs (100 * STD_DEV_MULTIPLE - 196 * 2^48) < 100 /\
  Z.abs (20 * MAX_CONF_INTERVAL - 2^48) < 20 /\
  U32_MAX_FX = 4294967295 * 2^48 /\ U32_MAX_DIV_10_FX = 429496730 * 2^48 /\
  MAX_PYTH_ORACLE_AGE = 60 /\ ORACLE_MIN_AGE = 10.
Proof. repeat split; reflexivity. Qed.

(* a Pyth integer x >= 0 with exponent e is read as floor(x * 10^e * 2^48) *)
Theorem C09_reported_price_conversion :
  forall x e q,
  0 <= x -> px_pyth_components (of_int x) e = Ok q ->
  -24 < e < 24 /\
  (0 <= e -> q = x * 10 ^ e * 2^48) /\
  (e < 0 -> q * 10 ^ (- e) <= x * 2^48 < (q + 1) * 10 ^ (- e)).
Proof.
  intros x e q Hx H. unfold px_pyth_components, of_int in H. apply bind_ok in H as (sf & Hsf & H).
  apply exp10_inv in Hsf as [Hr ->]. split; [lia|]. pose proof ONE_pos as HO. change (2^48) with ONE.
  destruct (e =? 0) eqn:E0; [|destruct (e <? 0) eqn:En; apply ok_or_inv in H].
  - apply Ok_inj in H as <-. replace e with 0 by lia. lia.
  - replace (Z.abs e) with (- e) in * by lia. pose proof (pow10_pos (- e) ltac:(lia)) as Hpow.
    apply cdiv_inv_nonneg in H as [-> _]; try nia. rewrite Z.div_mul_cancel_r by lia.
    split; [lia|]. intros _. split; [apply div_mul_floor | apply div_mul_floor_lt]; assumption.
  - apply cmul_inv in H as [-> _]. replace (Z.abs e) with e by lia.
    split; [|lia]. intros _. rewrite Z.mul_assoc, Z.div_mul by lia. lia.
Qed.

(* low = price - d, high = price + d, d = min(scaled confidence, cap), cap = floor(price * 0.05) with
   0.05 stored as (2^48 + 4) / 20 / 2^48; a fixed price carries no bias. *)
Theorem C09_bias_conservative :
  forall f t b omc p,
  0 <= omc ->
  px_price_of_type f t (Some b) omc = Ok p ->
  exists price d,
    px_price_of_type f t None omc = Ok price /\
    p = (match b with PLow => price - d | PHigh => price + d end) /\ 0 <= d /\
    (is_fixed f = true -> d = 0) /\
    (is_fixed f = false ->
       0 <= price /\ 20 * d * 2^48 <= price * (2^48 + 4) /\
       exists ci cap, px_scaled_conf f t = Ok ci /\ 0 <= ci /\ d = Z.min ci cap /\
         20 * cap * 2^48 <= price * (2^48 + 4) < 20 * (cap + 1) * 2^48).
Proof. exact price_bias. Qed.

Theorem C09_liability_fails_on_bad_feed :
  forall req pf omc k e, pf = Err e -> exists e', px_weighted_liab_value req pf omc k = Err e'.
Proof.
  intros req pf omc k e H. destruct (try_get_err pf e H) as (e' & c & Hg). unfold px_weighted_liab_value. rewrite Hg.
  exists e'. reflexivity.
Qed.

Theorem C09_liability_fails_on_bad_price :
  forall req f omc k e,
  px_price_of_type f (px_req_price_type req) (Some PHigh) omc = Err e ->
  px_weighted_liab_value req (Ok f) omc k = Err e.
Proof. intros req f omc k e. intros H. unfold px_weighted_liab_value. cbn [px_try_get_price_feed bind]. rewrite H. reflexivity. Qed.

(* bad feed: collateral counts 0 for the Initial requirement (and for isolated banks); Maintenance and
   Equity valuations fail *)
Theorem C09_collateral_on_bad_feed :
  forall iso ro req pf omc k e,
  pf = Err e ->
  (req = RInitial \/ iso = true -> exists c, px_weighted_asset_value iso ro req pf omc k = Ok (0, 0, c)) /\
  (req <> RInitial -> iso = false -> exists e', px_weighted_asset_value iso ro req pf omc k = Err e').
Proof.
  intros iso ro req pf omc k e H. destruct (try_get_err pf e H) as (e' & c & Hg). unfold px_weighted_asset_value. split.
  - intros [-> | ->]; [|eauto]. destruct iso; [eauto|]. destruct ro; cbn [andb]; [eauto|]. rewrite Hg. eauto.
  - intros Hr ->. rewrite Hg. destruct req; [contradiction | | ]; rewrite andb_false_r; eauto.
Qed.

Theorem C09_collateral_fails_on_bad_price :
  forall iso ro req f omc k e,
  iso = false -> (ro = false \/ req <> RInitial) ->
  px_price_of_type f (px_req_price_type req) (Some PLow) omc = Err e ->
  px_weighted_asset_value iso ro req (Ok f) omc k = Err e.
Proof.
  intros iso ro req f omc k e -> Hro H. unfold px_weighted_asset_value.
  replace (ro && match req with RInitial => true | _ => false end) with false
    by (destruct Hro as [->|Hr]; [reflexivity | destruct req; [contradiction| |]; destruct ro; reflexivity]).
  cbn [px_try_get_price_feed]. destruct req; cbn [bind]; rewrite H; reflexivity.
Qed.

(* a value is either 0 or computed from the low price of a loaded feed *)
Theorem C09_collateral_value_only_from_checked_price :
  forall iso ro req pf omc k v p c,
  px_weighted_asset_value iso ro req pf omc k = Ok (v, p, c) ->
  (v = 0 /\ p = 0) \/
  (c = 0 /\ exists f, pf = Ok f /\ px_price_of_type f (px_req_price_type req) (Some PLow) omc = Ok p /\ k p = Ok v).
Proof.
  intros iso ro req pf omc k v p c.
  unfold px_weighted_asset_value. intros H.
  destruct iso; [apply Ok_inj in H; inversion H; auto|].
  destruct (ro && match req with RInitial => true | _ => false end); [apply Ok_inj in H; inversion H; auto|].
  destruct (px_try_get_price_feed pf) as [[f|e] c0] eqn:Hg.
  - apply try_get_ok in Hg as [-> _]. right.
    assert (H' : (let* lo := px_price_of_type f (px_req_price_type req) (Some PLow) omc in
                  let* v0 := k lo in Ok (v0, lo, 0)) = Ok (v, p, c)) by (destruct req; exact H).
    apply bind_ok in H' as (lo & Hlo & H'). apply bind_ok in H' as (v0 & Hv & H').
    apply Ok_inj in H'. inversion H'; subst. eauto.
  - destruct req; try discriminate. apply Ok_inj in H. inversion H; auto.
Qed.

Theorem C09_debt_value_only_from_authentic_price :
  forall c ais vn sk ck req k v p,
  0 <= oc_max_age c <= 65535 ->
  (forall a m, In a ais -> oa_body a = BPyth m -> - 2^63 <= pm_publish m) ->
  px_weighted_liab_value req (px_try_from_bank c ais vn sk ck) (oc_max_conf c) k = Ok (v, p) ->
  exists f, px_try_from_bank c ais vn sk ck = Ok f /\
    px_price_of_type f (px_req_price_type req) (Some PHigh) (oc_max_conf c) = Ok p /\ k p = Ok v /\
    ((oc_setup c = OS_Fixed /\ ais = [] /\ f = FFixed (oc_fixed_price c) /\ 0 <= oc_fixed_price c) \/
     exists a rest, ais = a :: rest /\ oa_key a = oc_key0 c /\
       let max_age := if (oc_max_age c =? 0) && (oc_setup c =? OS_PythPushOracle) then 60 else oc_max_age c in
       ((In (oc_setup c) pyth_setups /\ oa_owner a = PYTH_RECEIVER_ID /\
         exists m, oa_body a = BPyth m /\ pm_full m = true /\ ck_now ck - pm_publish m <= max_age) \/
        (In (oc_setup c) swb_setups /\ oa_owner a = SWITCHBOARD_PULL_ID /\
         exists m, oa_body a = BSwb m /\ ck_now ck - sm_last_update m <= max_age))).
Proof.
  intros c ais vn sk ck req k v p Hr Hp H. apply liab_value_inv in H as (f & Hf & Hpr & Hk).
  exists f. repeat split; try assumption. eapply C09_authentic_and_fresh; eassumption.
Qed.

Theorem C09_negative_price_never_biased :
  forall f t b omc q,
  0 <= omc -> is_fixed f = false -> px_price f t = Ok q -> q < 0 ->
  forall p, px_price_of_type f t (Some b) omc <> Ok p.
Proof.
  intros f t b omc q Ho Hf Hq Hneg p H. apply biased_inv in H as (price & ci & H1 & _ & _ & _ & H5 & _); try assumption.
  rewrite Hq in H1. apply Ok_inj in H1. lia.
Qed.

Theorem C09_liquidation_prices_positive :
  forall apf lpf oa ol pa pl,
  0 <= oa -> 0 <= ol ->
  px_liquidation_prices apf lpf oa ol = Ok (pa, pl) ->
  0 < pa /\ 0 < pl /\
  exists fa fl qa ql, apf = Ok fa /\ lpf = Ok fl /\
    px_price_of_type fa RealTime (Some PLow) oa = Ok pa /\ px_price_of_type fl RealTime (Some PHigh) ol = Ok pl /\
    px_price_of_type fa RealTime None oa = Ok qa /\ px_price_of_type fl RealTime None ol = Ok ql /\
    0 < qa /\ pa <= qa /\ 0 < ql /\ ql <= pl.
Proof.
  intros apf lpf oa ol pa pl Ha Hl H. unfold px_liquidation_prices in H.
  apply bind_ok in H as (fa & -> & H). apply bind_ok in H as (pa' & Hpa & H). apply bind_check in H as [Hpa0 H].
  apply bind_ok in H as (fl & -> & H). apply bind_ok in H as (pl' & Hpl & H). apply bind_check in H as [Hpl0 H].
  apply Ok_inj in H. inversion H; subst pa' pl'.
  destruct (biased_positive _ _ _ _ _ Ha Hpa ltac:(lia)) as (qa & Hqa & Hqa0 & Hqale).
  destruct (biased_positive _ _ _ _ _ Hl Hpl ltac:(lia)) as (ql & Hql & Hql0 & Hqlle).
  split; [lia|]. split; [lia|]. exists fa, fl, qa, ql. repeat split; assumption.
Qed.

Theorem C09_liquidation_nonpositive_rejected :
  forall apf lpf oa ol fa fl,
  apf = Ok fa -> lpf = Ok fl ->
  (forall pa, px_price_of_type fa RealTime (Some PLow) oa = Ok pa -> pa <= 0 ->
     px_liquidation_prices apf lpf oa ol = Err (E 6057)) /\
  (forall pa pl, px_price_of_type fa RealTime (Some PLow) oa = Ok pa -> 0 < pa ->
     px_price_of_type fl RealTime (Some PHigh) ol = Ok pl -> pl <= 0 ->
     px_liquidation_prices apf lpf oa ol = Err (E 6058)).
Proof.
  intros apf lpf oa ol fa fl -> ->. unfold px_liquidation_prices, check. cbn [bind]. split.
  - intros pa -> Hle. cbn [bind]. replace (0 <? pa) with false by lia. reflexivity.
  - intros pa pl -> Hp H2 Hle. cbn [bind]. replace (0 <? pa) with true by lia.
    cbn [bind]. rewrite H2. cbn [bind]. replace (0 <? pl) with false by lia. reflexivity.
Qed.

Theorem C09_receivership_withdraw_price_positive :
  forall pf omc p,
  0 <= omc ->
  px_receivership_withdraw_price pf omc = Ok p ->
  0 < p /\ exists f q, pf = Ok f /\ px_price_of_type f RealTime (Some PLow) omc = Ok p /\
                       px_price_of_type f RealTime None omc = Ok q /\ 0 < q /\ p <= q.
Proof.
  intros pf omc p Ho H. unfold px_receivership_withdraw_price in H.
  apply bind_ok in H as (f & -> & H). apply bind_ok in H as (p' & Hp & H). apply bind_check in H as [Hp0 H].
  apply Ok_inj in H as <-. destruct (biased_positive _ _ _ _ _ Ho Hp ltac:(lia)) as (q & Hq & Hq0 & Hle).
  split; [lia|]. exists f, q. auto.
Qed.

(* Non-vacuity: a fresh, authentic $150.00 +- $0.10 Pyth account loads and prices; the same account one
   second too old, under a different key, or owned by another program does not; a zero price passes the
   confidence test and is stopped by the explicit guard. *)
Definition ex_cfg : ocfg := mkOC OS_PythPushOracle 11 0 0 0 0 0.
Definition ex_acct (publish : Z) : oacct := mkOA 11 PYTH_RECEIVER_ID (BPyth (mkPM true 15000 10 (-2) publish 15000 10)).
Definition ex_vn : venue := mkVN VLOk 0 (Err ENone) 0.
Definition ex_sk : staking := mkSK (Err EPanic) (Err EPanic).
Definition ex_load (a : oacct) : res feed := px_try_from_bank ex_cfg [a] ex_vn ex_sk (mkCK 1000 5).
Example C09_nonvacuous :
  ex_load (ex_acct 940) = Ok (FPyth 15000 10 (-2) 15000 10) /\
  px_price_of_type (FPyth 15000 10 (-2) 15000 10) RealTime (Some PLow) 0 = Ok 42161573811535743 /\
  px_price_of_type (FPyth 15000 10 (-2) 15000 10) RealTime None 0 = Ok (150 * 2^48) /\
  px_price_of_type (FPyth 15000 10 (-2) 15000 10) RealTime (Some PHigh) 0 = Ok 42280919201661057 /\
  ex_load (ex_acct 939) = Err (E 6050) /\
  ex_load (mkOA 12 PYTH_RECEIVER_ID (oa_body (ex_acct 940))) = Err (E 6052) /\
  ex_load (mkOA 11 SWITCHBOARD_PULL_ID (oa_body (ex_acct 940))) = Err (E 6053) /\
  px_price_of_type (FPyth 15000 2000 (-2) 15000 10) RealTime (Some PLow) 0 = Err (E 6055) /\
  px_price_of_type (FPyth (-15000) 0 (-2) 15000 10) RealTime (Some PLow) 0 = Err (E 6055) /\
  px_price_of_type (FPyth (-1) 0 (-14) 15000 10) RealTime (Some PLow) 0 = Err EPanic /\
  px_liquidation_prices (Ok (FPyth 0 0 (-2) 0 0)) (ex_load (ex_acct 940)) 0 0 = Err (E 6057) /\
  is_ok (px_liquidation_prices (ex_load (ex_acct 940)) (ex_load (ex_acct 1000)) 0 0) = true.
Proof. vm_compute. repeat split; reflexivity. Qed.

Print Assumptions C09_authentic_and_fresh.
Print Assumptions C09_authentic_any_max_age.
Print Assumptions C09_staleness_inequalities.
Print Assumptions C09_plain_setups_exact.
Print Assumptions C09_venue_account_checked.
Print Assumptions C09_staked_accounts_checked.
Print Assumptions C09_confidence_within_maximum.
Print Assumptions C09_scaled_confidence.
Print Assumptions C09_constants.
Print Assumptions C09_reported_price_conversion.
Print Assumptions C09_bias_conservative.
Print Assumptions C09_liability_fails_on_bad_feed.
Print Assumptions C09_liability_fails_on_bad_price.
Print Assumptions C09_collateral_on_bad_feed.
Print Assumptions C09_collateral_fails_on_bad_price.
Print Assumptions C09_collateral_value_only_from_checked_price.
Print Assumptions C09_debt_value_only_from_authentic_price.
Print Assumptions C09_negative_price_never_biased.
Print Assumptions C09_liquidation_prices_positive.
Print Assumptions C09_liquidation_nonpositive_rejected.
Print Assumptions C09_receivership_withdraw_price_positive.
