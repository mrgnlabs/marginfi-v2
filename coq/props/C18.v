(* C18 — Every accepted interest curve is usable, bounded and non-decreasing.
   Quantification: every configuration with u32 fields that validate_seven_point accepts (any point
   count 0..5 — in fact any list length), every utilisation bit pattern. *)
Require Import Base Constants Fixed Curve FixedLemmas CurveLemmas.
Local Open Scope Z_scope.

(* Uf / Rf are the exact values of the program's u32 -> I80F48 conversions:
   Uf u = floor(u * 2^48 / (2^32-1)),  Rf r = floor(r * 2^48 / (2^32-1)) * 10. *)

Theorem C18_curve_defined_and_bounded :
  forall c ur, cfg_ok c -> validate_seven_point c = Ok tt ->
  exists r, mpc c ur = Ok r /\ Rf (ir_zero c) <= r <= Rf (ir_hundred c).
Proof. exact curve_defined_bounded. Qed.

Theorem C18_curve_monotone :
  forall c u1 u2 r1 r2, cfg_ok c -> validate_seven_point c = Ok tt -> u1 <= u2 ->
  mpc c u1 = Ok r1 -> mpc c u2 = Ok r2 -> r1 <= r2.
Proof.
  intros c u1 u2 r1 r2 Hc Hv H12. rewrite !mpc_eq by assumption. pose proof Hc as (Hz & Hh & Hp).
  pose proof (clamp01_range u1). pose proof (clamp01_range u2). pose proof (clamp01_mono _ _ H12).
  pose proof (Rf_range _ Hz). pose proof (Rf_range _ Hh).
  apply seg_mono; try lia. apply valid_chain; assumption.
Qed.

Theorem C18_curve_hits_points :
  forall c p, cfg_ok c -> validate_seven_point c = Ok tt -> In p (ir_points c) -> rp_util p <> 0 ->
  mpc c (Uf (rp_util p)) = Ok (Rf (rp_rate p)).
Proof.
  intros c p Hc Hv Hin Hnz. rewrite mpc_eq by assumption. pose proof Hc as (Hz & Hh & Hp).
  rewrite Forall_forall in Hp. destruct (Hp p Hin) as [Hpu Hpr].
  rewrite clamp01_id by (apply Uf_range; assumption).
  pose proof (Rf_range _ Hz). pose proof (Rf_range _ Hh).
  apply seg_hits; try lia; [apply valid_chain; assumption|].
  unfold conv, used_of. apply (in_map (fun p => (Uf (rp_util p), Rf (rp_rate p)))).
  apply filter_In. split; [assumption | lia].
Qed.

Theorem C18_curve_endpoints :
  forall c, cfg_ok c -> validate_seven_point c = Ok tt ->
  (forall ur, ur <= 0 -> mpc c ur = Ok (Rf (ir_zero c))) /\
  ((forall p, In p (ir_points c) -> rp_util p < U32_MAXZ) ->
   forall ur, ONE <= ur -> mpc c ur = Ok (Rf (ir_hundred c))).
Proof.
  intros c Hc Hv. pose proof Hc as (Hz & Hh & Hp).
  pose proof (Rf_range _ Hz). pose proof (Rf_range _ Hh). split.
  - intros ur Hur. rewrite mpc_eq by assumption.
    replace (clamp01 ur) with 0 by (unfold clamp01, fmin, fmax; consts; lia).
    apply seg_at_zero; try lia. apply valid_chain; assumption.
  - intros Hlt ur Hur. rewrite mpc_eq by assumption.
    replace (clamp01 ur) with ONE by (unfold clamp01, fmin, fmax; consts; lia).
    apply seg_at_one; try (consts; lia); [apply valid_chain; assumption|].
    intros u r Hin. unfold conv in Hin. apply in_map_iff in Hin as (p & Heq & Hin). inversion Heq; subst.
    unfold used_of in Hin. apply filter_In in Hin as [Hin _].
    rewrite Forall_forall in Hp. destruct (Hp p Hin) as [Hpu _]. specialize (Hlt p Hin).
    rewrite <- Uf_max. apply Uf_strict; lia.
Qed.

Theorem C18_borrow_ge_base_lend_le_base :
  forall c pf ur r, calc_interest_rate c pf ur = Ok r ->
  0 <= ir_ins_rate c -> 0 <= ir_grp_rate c -> 0 <= ir_ins_fixed c -> 0 <= ir_grp_fixed c ->
  0 <= pf_rate pf -> 0 <= pf_fixed pf -> 0 <= r_base r ->
  r_base r <= r_borrowing r /\ (0 <= ur <= ONE -> r_lending r <= r_base r).
Proof.
  intros c pf ur r H _ _ _ _ _ _ Hb. destruct (calc_interest_rate_facts _ _ _ _ H) as [_ _ Hg Hi Hp Hl _ Hsum _].
  split; [lia|]. intros Hur. rewrite Hl. apply mul_div_le; [apply ONE_pos | assumption | assumption].
Qed.

(* an accepted curve cannot by itself make the rate computation (hence accrual) fail:
   fees in [0, 2^30], utilisation in [0, 65536] *)
Theorem C18_accrual_rate_total :
  forall c pf ur, cfg_ok c -> validate_seven_point c = Ok tt ->
  ir_curve_type c = INTEREST_CURVE_SEVEN_POINT -> fees_ok c pf (2^78) -> 0 <= ur <= 2^64 ->
  exists r, calc_interest_rate c pf ur = Ok r.
Proof.
  intros c pf ur Hc Hv Hct (Hf1 & Hf2 & Hf3 & Hf4 & Hf5 & Hf6) Hur. destruct (curve_defined_bounded c ur Hc Hv) as (base & Hb & Hbb).
  pose proof Hc as (Hz & Hh & _). pose proof (Rf_range _ Hz). pose proof (Rf_range _ Hh).
  unfold calc_interest_rate. rewrite Hct. cbn [Z.eqb INTEREST_CURVE_SEVEN_POINT INTEREST_CURVE_LEGACY Pos.eqb].
  set (prate := if pf_on pf then pf_rate pf else 0). set (pfix := if pf_on pf then pf_fixed pf else 0).
  assert (0 <= prate <= 2^78) by (unfold prate; destruct (pf_on pf); lia).
  assert (0 <= pfix <= 2^78) by (unfold pfix; destruct (pf_on pf); lia).
  rewrite uadd_ok by (consts; lia). cbn [bind]. rewrite uadd_ok by (consts; lia). cbn [bind].
  rewrite uadd_ok by (consts; lia). cbn [bind]. rewrite uadd_ok by (consts; lia). cbn [bind].
  rewrite Hb. cbn [bind].
  pose proof (rate_mul_bound base ur (2^64) ltac:(lia) Hur).
  rewrite cmul_ok by (consts; lia). cbn [bind].
  rewrite cadd_ok by (consts; lia). cbn [bind].
  set (f := ONE + (ir_ins_rate c + ir_grp_rate c + prate)).
  assert (0 <= f <= 4 * 2^78) by (unfold f; consts; lia).
  pose proof (rate_mul_bound base f (4 * 2^78) ltac:(lia) ltac:(assumption)).
  rewrite cmul_ok by (consts; lia). cbn [bind].
  rewrite cadd_ok by (consts; lia). cbn [bind].
  assert (HB : 11 * 2^78 <= I128_MAX) by (consts; lia).
  destruct (calc_fee_rate_ok _ base (ir_grp_rate c) (ir_grp_fixed c) HB) as (g & -> & ?); try lia.
  destruct (calc_fee_rate_ok _ base (ir_ins_rate c) (ir_ins_fixed c) HB) as (i & -> & ?); try lia.
  destruct (calc_fee_rate_ok _ base prate pfix HB) as (p & -> & ?); try lia.
  cbn [bind]. unfold assert.
  replace (0 <=? base * ur / ONE) with true by lia.
  replace (0 <=? base * f / ONE + (ir_ins_fixed c + ir_grp_fixed c + pfix)) with true by lia.
  replace (0 <=? g) with true by lia. replace (0 <=? i) with true by lia. replace (0 <=? p) with true by lia.
  cbn [bind]. eexists; reflexivity.
Qed.

Theorem C18_legacy_defined_bounded_monotone :
  forall c, validate_legacy c = Ok tt -> ir_max c <= I128_MAX / 2 ->
  (forall ur, 0 <= ur <= ONE ->
     exists r, legacy_curve c ur = Ok r /\ 0 <= r <= ir_max c /\
               (ur <= ir_optimal c -> r <= ir_plateau c) /\ (ir_optimal c < ur -> ir_plateau c <= r)) /\
  (forall u1 u2 r1 r2, 0 <= u1 -> u1 <= u2 -> u2 <= ONE ->
     legacy_curve c u1 = Ok r1 -> legacy_curve c u2 = Ok r2 -> r1 <= r2).
Proof. intros c Hv Hm. split; [exact (fun ur => legacy_ok c ur Hv Hm) | exact (fun u1 u2 r1 r2 => legacy_mono c u1 u2 r1 r2 Hv Hm)]. Qed.

(* Non-vacuity: a concrete accepted 5-point curve with adjacent utils and a point at u32::MAX *)
Definition ex_cfg : ir_config :=
  mkIR 0 0 0 100 200 300 400 1000 4000000000
       [mkRP 1 1000; mkRP 2 1000; mkRP 2147483648 500000000; mkRP 4294967294 3000000000; mkRP 4294967295 4000000000] 1.
Example C18_nonvacuous :
  validate_seven_point ex_cfg = Ok tt /\
  Forall pt_ok (ir_points ex_cfg) /\
  is_ok (calc_interest_rate ex_cfg (mkPF true 5 7) (ONE / 2)) = true /\
  is_ok (validate_seven_point (mkIR 0 0 0 0 0 0 0 5 4 [] 1)) = false.
Proof. split; [reflexivity|]. split; [repeat constructor; cbv; discriminate|]. split; reflexivity. Qed.

Print Assumptions C18_curve_defined_and_bounded.
Print Assumptions C18_curve_monotone.
Print Assumptions C18_curve_hits_points.
Print Assumptions C18_curve_endpoints.
Print Assumptions C18_borrow_ge_base_lend_le_base.
Print Assumptions C18_accrual_rate_total.
Print Assumptions C18_legacy_defined_bounded_monotone.
