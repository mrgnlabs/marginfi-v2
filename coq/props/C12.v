(* C12 — least privilege: each admin role changes only what it is entitled to.
   Statements, derived from the lemmas of lemmas/PrivilegeLemmas.v, lemmas/DeleverageLemmas.v and
   lemmas/GroupRolesLemmas.v.
   `erase_X b' = erase_X b` reads "every modelled field of the bank outside X is unchanged"; `outside w' = outside w`
   reads "metadata, emissions funding account and vault, bank vaults, user accounts, group and every other
   account are unchanged" (see model/Privilege.v). *)
Require Import Base Constants ConfigGen PrivGen Fixed Curve Config Emode ConfigPaths Privilege.
Require Import Bank BankOps Risk Handlers Deleverage.
Require Import FixedLemmas ConfigLemmas PrivilegeLemmas DeleverageLemmas.
Require Import GroupRoles GroupRolesLemmas.
Local Open Scope Z_scope.

Theorem C12_curve_admin_frame : forall g signer w io w',
  pstep g signer w (PInterestOnly io) = Ok w' ->
  signer = RCurveAdmin /\ erase_ir (px_bank w') = erase_ir (px_bank w) /\ outside w' = outside w.
Proof.
  intros g signer w io w' H.
  split; [exact (sole_signer _ _ _ _ _ _ H eq_refl)|].
  apply pstep_req in H as (c & Hc%apply_req_inv & ->). split; [|reflexivity].
  destruct (cb_get_flag _ _); [|destruct Hc as (ir & orig & _ & Hc)]; subst c; reflexivity.
Qed.

Theorem C12_limit_admin_frame : forall g signer w d b l w',
  pstep g signer w (PLimitsOnly d b l) = Ok w' ->
  signer = RLimitAdmin /\ erase_limits (px_bank w') = erase_limits (px_bank w) /\ outside w' = outside w.
Proof.
  intros g signer w d b l w' H.
  split; [exact (sole_signer _ _ _ _ _ _ H eq_refl)|].
  apply pstep_req in H as (c & (l' & -> & _)%apply_req_inv & ->). split; reflexivity.
Qed.

Theorem C12_emode_admin_frame : forall g signer w ix w',
  is_emode_ix ix = true -> pstep g signer w ix = Ok w' ->
  In signer (accepted_signers ix) /\ erase_emode (px_bank w') = erase_emode (px_bank w) /\ outside w' = outside w.
Proof.
  intros g signer w ix w' Hix H.
  split; [destruct (unauthorized_signer_rejected _ _ _ _ _ H) as [E|Hs]; [destruct ix; discriminate | exact Hs]|].
  destruct ix; try discriminate; apply pstep_req in H as (c & [_ ->]%apply_req_inv & ->);
    split; reflexivity.
Qed.

Theorem C12_metadata_admin_frame : forall g signer w t d w',
  pstep g signer w (PWriteMetadata t d) = Ok w' ->
  signer = RMetadataAdmin /\ px_bank w' = px_bank w /\ outside_metadata w' = outside_metadata w.
Proof. exact metadata_admin_frame. Qed.

Theorem C12_risk_admin_frame : forall g signer w w',
  pstep g signer w PForceTokenlessComplete = Ok w' ->
  signer = RRiskAdmin /\ erase_risk (px_bank w') = erase_risk (px_bank w) /\ outside w' = outside w /\
  (flag_set (pb_flags (px_bank w)) TOKENLESS_REPAYMENTS_ALLOWED = false -> px_bank w' = px_bank w).
Proof. exact risk_admin_frame. Qed.

(* emissions admin: emissions rate, mint, remaining amount and the two emissions flags (bits 1 | 2 = 3 of the
   flag word), for ALL arguments incl. all flag words; the tokens it moves go from its funding account to the
   bank's emissions vault *)
Theorem C12_emissions_admin_frame : forall g signer w ix w',
  is_emissions_ix ix = true -> pstep g signer w ix = Ok w' ->
  signer = REmissionsAdmin /\ erase_emissions (px_bank w') = erase_emissions (px_bank w) /\
  outside_emissions w' = outside_emissions w.
Proof.
  intros g signer w ix w' Hix H.
  split; [destruct ix; try discriminate; exact (sole_signer _ _ _ _ _ _ H eq_refl)|].
  destruct (emissions_ix_inv _ _ _ _ _ Hix H) as (_ & Ho & f & r & rm & mt & -> & Hd).
  split; [apply erase_with_emissions; exact Hd | exact Ho].
Qed.

(* a flag word with any bit outside EMISSION_FLAGS = 3 is refused by both emissions instructions *)
Theorem C12_emissions_foreign_flags_rejected : forall g signer w w',
  (forall ac mint x orate oadd, pstep g signer w (PUpdateEmissions ac mint (Some x) orate oadd) = Ok w' -> Z.land x 3 = x) /\
  (forall mint x rate total, pstep g signer w (PSetupEmissions mint x rate total) = Ok w' -> Z.land x 3 = x).
Proof.
  intros g signer w w'. split.
  - intros ac mint x orate oadd H. apply emissions_ix_inv in H as [Hx _]; [exact (Hx x eq_refl) | reflexivity].
  - intros mint x rate total H. apply emissions_ix_inv in H as [Hx _]; [exact (Hx x eq_refl) | reflexivity].
Qed.

(* the group admin's configure_bank writes, of the flag word, only bits 4 | 8 | 32 = 44
   (permissionless bad debt, freeze, tokenless repayments allowed), and nothing of emissions / e-mode *)
Theorem C12_configure_touches_only_its_three_flags : forall g signer w o w',
  pstep g signer w (PConfigure o) = Ok w' ->
  signer = RAdmin /\
  Z.ldiff (pb_flags (px_bank w')) 44 = Z.ldiff (pb_flags (px_bank w)) 44 /\
  cb_emode (pb_c (px_bank w')) = cb_emode (pb_c (px_bank w)) /\
  erase_emissions_fields (with_c (px_bank w') (pb_c (px_bank w))) = erase_emissions_fields (px_bank w) /\
  pb_em_rate (px_bank w') = pb_em_rate (px_bank w) /\ pb_em_remaining (px_bank w') = pb_em_remaining (px_bank w) /\
  pb_em_mint (px_bank w') = pb_em_mint (px_bank w) /\
  outside w' = outside w.
Proof.
  intros g signer w o w' H. split; [exact (sole_signer _ _ _ _ _ _ H eq_refl)|].
  apply pstep_req in H as (c & Hc & ->). split; [|split].
  - apply req_frame in Hc as [_ [Hf|[_ Hf]]]; [unfold pb_flags; cbn [px_bank set_bank pb_c with_c]; rewrite Hf; reflexivity | exact Hf].
  - apply apply_req_inv in Hc. cbv beta iota in Hc. destruct (cb_get_flag _ _); [subst c; reflexivity|].
    destruct Hc as [(_ & He & _)%bank_configure_inv _]. exact He.
  - destruct w as [[]]. repeat split.
Qed.

(* on a frozen bank configure_bank / interest-only / limits-only / configure-oracle / set-fixed-price
   change nothing but deposit_limit and borrow_limit (weights, oracle, curve, risk tier, collateral-value
   cap, operational state, flags all stay) *)
Theorem C12_frozen : forall g signer w ix w',
  pb_frozen (px_bank w) = true -> is_bank_config_ix ix = true -> pstep g signer w ix = Ok w' ->
  erase_dep_bor (px_bank w') = erase_dep_bor (px_bank w) /\ outside w' = outside w.
Proof.
  intros g signer w ix w' Hfr Hix H. pose proof (frozen_refuses_oracle _ _ _ _ _ Hfr H) as Ho. unfold pb_frozen in Hfr.
  destruct ix; try discriminate; try contradiction;
    apply pstep_req in H as (c & Hc%apply_req_inv & ->); cbv beta iota in Hc; split; try reflexivity.
  - rewrite Hfr in Hc. subst c. reflexivity.
  - rewrite Hfr in Hc. subst c. reflexivity.
  - destruct Hc as (l' & -> & Hl). rewrite (Hl Hfr). reflexivity.
Qed.

(* nobody lifts the freeze: any sequence of the modelled instructions, any arguments, any signers *)
Theorem C12_freeze_sticky : forall g w l,
  pb_frozen (px_bank w) = true -> pb_frozen (px_bank (prun g w l)) = true.
Proof.
  intros g w l. revert w. induction l as [|[s ix] rest IH]; intros w Hfr; [exact Hfr|].
  cbn [prun]. apply IH.
  destruct (pstep g s w ix) as [w'|e] eqn:E; [|exact Hfr].
  apply (pstep_keeps_freeze _ _ _ _ _ Hfr E).
Qed.

Theorem C12_unauthorized_signer_rejected : forall g signer w ix w',
  pstep g signer w ix = Ok w' -> accepted_signers ix = [] \/ In signer (accepted_signers ix).
Proof. exact unauthorized_signer_rejected. Qed.

Theorem C12_deleverage_health_not_worse : forall w c a r signs steps w' c',
  dv_tx w c a r signs steps = Ok (w', c') ->
  exists h0 h1, maint_health w a = Ok h0 /\ maint_health w' a = Ok h1 /\ h0 <= h1.
Proof.
  intros w c a r signs steps w' c' (w1 & s & w2 & Hst & _ & Hend)%dv_tx_inv.
  apply dv_start_inv in Hst as (_ & _ & Hm & _). apply dv_end_inv in Hend as (post & ac' & Hle & Hm' & _). eauto.
Qed.

Theorem C12_deleverage_bracket : forall w c a r signs steps w' c',
  dv_tx w c a r signs steps = Ok (w', c') ->
  (exists ac, nth_acct w a = Ok ac /\ aflag ac G_ACCOUNT_IN_RECEIVERSHIP = false) /\
  (exists ac', nth_acct w' a = Ok ac' /\ aflag ac' G_ACCOUNT_IN_RECEIVERSHIP = false /\ aflag ac' G_ACCOUNT_IN_DELEVERAGE = false).
Proof.
  intros w c a r signs steps w' c' (w1 & s & w2 & Hst & _ & Hend)%dv_tx_inv.
  apply dv_start_inv in Hst as (_ & _ & _ & Hac). apply dv_end_inv in Hend as (post & ac' & _ & _ & Hac'). eauto.
Qed.

Theorem C12_deleverage_only_risk_admin : forall w c a r signs steps x,
  dv_tx w c a r signs steps = Ok x -> signs = true.
Proof. intros w c a r signs steps [w' c'] (w1 & s & w2 & [Hs _]%dv_start_inv & _)%dv_tx_inv. exact Hs. Qed.

(* the daily window: with a limit configured (<> 0; it is a u32), after ANY list of withdrawals (any values,
   any timestamps) the whole dollars accepted since the last reset are <= limit.  WInv is the ghost invariant
   "the cache holds the whole dollars of the accepted withdrawals since the last reset, and is >= 0"; it holds
   for a fresh window and is kept by the admin's configure (fresh_window, configure_keeps_winv) *)
Theorem C12_daily_limit : forall evs s,
  wc_limit (wt_cache s) <> 0 -> wc_limit (wt_cache s) <= 4294967295 ->
  WInv s -> window_dollars (wt_window s) <= wc_limit (wt_cache s) ->
  WInv (wrun s evs) /\ window_dollars (wt_window (wrun s evs)) <= wc_limit (wt_cache s).
Proof.
  intros evs s Hl0 Hty Hinv Hle.
  apply (wrun_invariant (fun s' => wc_limit (wt_cache s') = wc_limit (wt_cache s) /\
                             WInv s' /\ window_dollars (wt_window s') <= wc_limit (wt_cache s))); [|auto].
  intros s' ev (El & Hs'). split; [rewrite wstep_limit; exact El|].
  rewrite <- El in *. apply wstep_window; assumption.
Qed.

(* resets are at least 24 h = 86400 s apart *)
Theorem C12_daily_resets_spaced : forall evs s,
  RInv 86400 s -> spaced_by 86400 (wt_resets (wrun s evs)).
Proof. intros evs s H. apply (wrun_invariant _ wstep_resets evs s H). Qed.

(* a successful deleverage transaction moves the group's window exactly by feeding its withdrawn equities,
   each accepted, through update_withdrawn_equity at the transaction's timestamp *)
Theorem C12_deleverage_tx_window : forall w c a r signs steps w' c',
  dv_tx w c a r signs steps = Ok (w', c') ->
  exists eqs, window_fold (hw_now w) c eqs = Ok c'.
Proof.
  intros w c a r signs steps w' c' (w1 & s & w2 & Hst & Hsteps & _)%dv_tx_inv.
  apply dv_start_inv in Hst as (_ & Hn & _). apply dv_steps_window in Hsteps as (_ & Hf). rewrite Hn in Hf. exact Hf.
Qed.

(* lending_account_purge_delev_balance: risk admin only, only once the bank's tokenless repayments are complete *)
Theorem C12_purge_guard : forall w a b signs w',
  dv_purge w a b signs = Ok w' ->
  signs = true /\ exists hb, nth_bank w b = Ok hb /\ get_flag (b_flags (hb_b hb)) TOKENLESS_REPAYMENTS_COMPLETE = true.
Proof.
  unfold dv_purge. intros w a b signs w' H.
  apply bind_unit in H as [Hs%check_true H].
  apply bind_ok in H as (hb & Hb & H). apply bind_ok in H as (ac & _ & H).
  apply bind_unit in H as [_ H]. apply bind_unit in H as [Hf%check_true _]. eauto.
Qed.

Example C12_nonvacuous_limits :
  exists w', pstep wit_caps RLimitAdmin (wit_world 16 0 None) (PLimitsOnly (Some 5) None (Some 7)) = Ok w' /\
             bc_deposit_limit (cb_cfg (pb_c (px_bank w'))) = 5 /\ bc_init_limit (cb_cfg (pb_c (px_bank w'))) = 7.
Proof. eexists. split; [vm_compute; reflexivity|]. split; reflexivity. Qed.

Example C12_nonvacuous_frozen :
  exists w', pstep wit_caps RLimitAdmin (wit_world 24 0 None) (PLimitsOnly (Some 5) None (Some 7)) = Ok w' /\
             bc_deposit_limit (cb_cfg (pb_c (px_bank w'))) = 5 /\ bc_init_limit (cb_cfg (pb_c (px_bank w'))) = 0.
Proof. eexists. split; [vm_compute; reflexivity|]. split; reflexivity. Qed.

(* a frozen bank with CLOSE_ENABLED (flags 24): the emissions admin turns both emissions flags on -> 27 *)
Example C12_nonvacuous_emissions :
  exists w', pstep wit_caps REmissionsAdmin (wit_world 24 1 (Some 0)) (PUpdateEmissions (Ok tt) 1 (Some 3) (Some 9) None) = Ok w' /\
             pb_flags (px_bank w') = 27 /\ pb_em_rate (px_bank w') = 9.
Proof. eexists. split; [vm_compute; reflexivity|]. split; reflexivity. Qed.

(* limit 1000: $400 accepted, $700 refused (would be 1100), a day later $700 accepted in a new window *)
Example C12_nonvacuous_window :
  let s := wrun (mkWT (mkWC 1000 0 1700000000) [] [])
                [(1700000010, of_int 400); (1700000020, of_int 700); (1700086400, of_int 700)] in
  wt_window s = [of_int 700] /\ wt_resets s = [1700086400] /\ wc_withdrawn (wt_cache s) = 700.
Proof. vm_compute. repeat split; reflexivity. Qed.

(* Who HOLDS a role (model/GroupRoles.v: marginfi_group_configure and the has_one through which every delegated
   instruction recognises its signer).  A successful configure was signed by the current admin and stores each requested
   key under the role of the same name - the curve admin's key never lands in the limit admin's field, etc. *)
Theorem C12_roles_assigned_exactly_by_admin : forall g signer a now g',
  ix_group_configure g signer a now = Ok g' ->
  signer = gr_admin g /\
  role_keys g' = [gc_admin a; gc_emode a; gc_curve a; gc_limit a; gc_emissions a; gc_metadata a; gc_risk a] /\
  ix_group_set_caps (gc_init a) (gc_maint a) = Ok (gr_caps g') /\ gr_fee_last g' = now.
Proof. intros g signer a now g' (Hs & c & Hc & ->)%group_configure_inv. repeat split; assumption. Qed.

(* no delegate (nor anybody else) can take, keep or pass on a role: any history of configure attempts in which the
   admin does not sign leaves the whole table - all seven keys and the leverage caps - exactly as it was *)
Theorem C12_roles_frozen_without_admin : forall ops g,
  Forall (fun op => fst (fst op) <> gr_admin g) ops -> gr_run g ops = g.
Proof.
  induction ops as [|[[s a] now] ops IH]; intros g Hall; [reflexivity|].
  apply Forall_cons_iff in Hall as [Hx Hl]. cbn [gr_run fold_left gr_apply].
  rewrite (group_configure_needs_admin g s a now Hx). apply IH. exact Hl.
Qed.

(* over ANY history: whoever is recognised under role r at the end either held r at the start or was written into
   exactly r by a configure signed by the admin of that moment *)
Theorem C12_role_holder_appointed_by_admin : forall ops g r k,
  role_key (gr_run g ops) r = k ->
  role_key g r = k \/
  exists pre s a now post, ops = pre ++ (s, a, now) :: post /\ s = gr_admin (gr_run g pre) /\ gc_key a r = k.
Proof.
  induction ops as [|[[s a] now] ops IH]; intros g r k Hk; [left; exact Hk|].
  change (gr_run g ((s, a, now) :: ops)) with (gr_run (gr_apply g (s, a, now)) ops) in Hk.
  apply IH in Hk as [H0 | (pre & s' & a' & now' & post & -> & Hs & Hkey)].
  - cbn [gr_apply] in H0. destruct (ix_group_configure g s a now) as [g'|e] eqn:Eg; [|left; exact H0].
    apply group_configure_inv in Eg as (-> & c & _ & ->).
    right. exists [], (gr_admin g), a, now, ops. repeat split. rewrite <- H0. destruct r; reflexivity.
  - right. exists ((s, a, now) :: pre), s', a', now', post. repeat split; assumption.
Qed.

Example C12_roles_nonvacuous :
  let g0 := mkGR 1 1 1 1 1 1 1 (mkCaps 0 0) 0 in
  let a := mkGC 2 3 4 5 6 7 8 None None in
  let g := gr_run g0 [(4, a, 10); (1, a, 20); (1, a, 30); (3, mkGC 3 3 3 3 3 3 3 None None, 40)] in
  role_keys g = [2; 3; 4; 5; 6; 7; 8] /\ gr_fee_last g = 20 /\ role_accepts g GCurve 4 = true /\ role_accepts g GLimit 4 = false.
Proof. vm_compute. repeat split; reflexivity. Qed.

Print Assumptions C12_curve_admin_frame.
Print Assumptions C12_limit_admin_frame.
Print Assumptions C12_emode_admin_frame.
Print Assumptions C12_metadata_admin_frame.
Print Assumptions C12_risk_admin_frame.
Print Assumptions C12_emissions_admin_frame.
Print Assumptions C12_emissions_foreign_flags_rejected.
Print Assumptions C12_freeze_sticky.
Print Assumptions C12_configure_touches_only_its_three_flags.
Print Assumptions C12_frozen.
Print Assumptions C12_unauthorized_signer_rejected.
Print Assumptions C12_deleverage_health_not_worse.
Print Assumptions C12_deleverage_bracket.
Print Assumptions C12_deleverage_only_risk_admin.
Print Assumptions C12_daily_limit.
Print Assumptions C12_daily_resets_spaced.
Print Assumptions C12_deleverage_tx_window.
Print Assumptions C12_purge_guard.
Print Assumptions C12_roles_assigned_exactly_by_admin.
Print Assumptions C12_roles_frozen_without_admin.
Print Assumptions C12_role_holder_appointed_by_admin.
