(* C17 — Caps and utilisation: limits hold after every user action.
   Wrapper-level statements (the primitives every handler goes through), then the instruction-level ones;
   of_int n = n * 2^48.
   Drift-tagged banks scale the deposit limit to 9 decimals (scale_drift_deposit_limit): the cap
   statements below are for the other tags (the scaled comparison is covered by the correspondence). *)
Require Import Base Constants Fixed Curve Bank BankOps FixedLemmas BankLemmas ValueLemmas.
Require Import Risk TransferFee Handlers AccrualLemmas HandlerLemmas SolvencyLemmas HandlerEffects SolvencyHandlers.
Require Import HandlerWorld CapsHandlers CapErrLemmas.
Local Open Scope Z_scope.

(* after any successful deposit (or repayment overflow) that mints shares, total deposits are
   strictly below the deposit limit, unless the limit is u64::MAX (inactive) *)
Theorem C17_deposit_below_limit :
  forall b bl now delta t b' bl', wf_sv b -> wf_bal bl -> 0 <= delta -> t <> IncBypassDepositLimit ->
  increase_balance b bl now delta t = Ok (b', bl') ->
  0 < ashares b (inc_a_inc b bl delta) -> b_dep_limit b <> U64_MAX -> b_asset_tag b <> ASSET_TAG_DRIFT ->
  b_tas b' * b_asv b' / ONE < of_int (b_dep_limit b').
Proof. exact deposit_under_cap. Qed.

(* after any successful borrow / withdraw: total debt strictly below the borrow limit (when new debt
   was created and the limit is active) and total deposits >= total debt *)
Theorem C17_borrow_below_limit_and_utilisation :
  forall b bl now delta t b' bl', wf_sv b -> wf_bal bl -> 0 <= delta -> t <> DecBypassBorrowLimit ->
  decrease_balance b bl now delta t = Ok (b', bl') ->
  (0 < lshares b (dec_l_inc b bl delta) -> b_bor_limit b <> U64_MAX ->
     b_tls b' * b_lsv b' / ONE < of_int (b_bor_limit b')) /\
  b_tls b' * b_lsv b' / ONE <= b_tas b' * b_asv b' / ONE.
Proof. exact borrow_under_cap_and_utilisation. Qed.

Theorem C17_withdraw_all_utilisation :
  forall b bl now b' bl' n, wf_sv b -> wf_bal bl -> withdraw_all b bl now = Ok (b', bl', n) ->
  b_tls b' * b_lsv b' / ONE <= b_tas b' * b_asv b' / ONE.
Proof. exact withdraw_all_utilisation. Qed.

(* the remaining capacity is safe: depositing any whole amount up to it never fails for the cap *)
Theorem C17_capacity_is_safe :
  forall b c n, wf_sv b -> 0 <= b_tas b -> b_asset_tag b <> ASSET_TAG_DRIFT -> b_dep_limit b <> U64_MAX ->
  remaining_deposit_capacity b = Ok c -> 0 <= n <= c -> 0 < c ->
  change_asset_shares b (ashares b (of_int n)) false <> Err (E E_BankAssetCapacityExceeded).
Proof.
  intros b c n Hsv Ht Htag Hlim Hc Hn Hc0.
  destruct (ashares_le b (of_int n) (of_int_nonneg n (proj1 Hn)) (proj1 Hsv)) as (S0 & S1).
  exact (capacity_safe b c n _ Htag Hlim Hc (proj2 Hn) Hc0 S1).
Qed.

(* liquidation alone may exceed the caps: the two bypass primitives succeed beyond the limits *)
Definition ex_bank (lim : Z) : bank :=
  mkBank ONE ONE (10 * ONE) 0 0 0 0 0 lim 5 0 6 0 0 0 0 0 1 (mkIR 0 0 0 0 0 0 0 0 0 [] 1).
Example C17_only_liquidation_primitives_bypass :
  is_ok (increase_balance (ex_bank 10) bal_empty 0 (of_int 5) IncDepositOnly) = false /\
  is_ok (increase_balance (ex_bank 10) bal_empty 0 (of_int 5) IncBypassDepositLimit) = true /\
  is_ok (decrease_balance (ex_bank 100) bal_empty 0 (of_int 7) DecBorrowOnly) = false /\
  is_ok (decrease_balance (ex_bank 100) bal_empty 0 (of_int 7) DecBypassBorrowLimit) = true /\
  remaining_deposit_capacity (ex_bank 100) = Ok 89.
Proof. vm_compute. repeat split; reflexivity. Qed.

Print Assumptions C17_deposit_below_limit.
Print Assumptions C17_borrow_below_limit_and_utilisation.
Print Assumptions C17_withdraw_all_utilisation.
Print Assumptions C17_capacity_is_safe.

(* instruction level (handler model of Handlers.v; HOk2 is the invariant proved preserved in C01) *)
(* a successful deposit that added deposit shares leaves total deposits strictly below an active deposit limit *)
Theorem C17_deposit_instruction_respects_limit :
  forall w a b n up w' hb hb', HOk2 w -> 0 <= n -> h_deposit w a b n up = Ok w' ->
  nth_bank w b = Ok hb -> nth_bank w' b = Ok hb' -> b_tas (hb_b hb) < b_tas (hb_b hb') ->
  b_dep_limit (hb_b hb) <> U64_MAX -> b_asset_tag (hb_b hb) <> ASSET_TAG_DRIFT ->
  deposits_of (hb_b hb') < of_int (b_dep_limit (hb_b hb')).
Proof.
  intros w a b n up w' hb hb'.
  intros H2 Hn H Hb Hb' Hinc Hlim Htag.
  destruct (h_deposit_effect _ _ _ _ _ _ H) as (hb0 & hb0' & ac & ac' & E & F).
  destruct (eff1_at _ _ _ _ _ _ _ _ _ _ E Hb Hb') as (-> & ->).
  destruct F as (bk1 & dep & Hacc & _ & _ & Hdep & Hcase). apply (deposit_amount_bound _ _ _ _ Hn) in Hdep.
  destruct (HOk2_accrued _ _ _ _ H2 Hb Hacc) as (_ & Hsv1 & T1 & _).
  pose proof (accrue_frame _ _ _ _ Hacc) as F. pose proof (cs_dep_limit _ _ F) as Fd. pose proof (cs_asset_tag _ _ F) as Ft.
  destruct Hcase as [(_ & -> & _) | (Hd & i & la1 & bl & bk2 & bl2 & pre & f & bk3 & Hloc & Hbl & Hinc2 & _ & _ & Hcache & -> & _)];
    cbn [mk_hb set_hb_b hb_b] in Hinc |- *; [lia|].
  pose proof (created_slot_wf _ _ _ _ _ _ _ Hloc Hbl (acct_wf_of _ _ _ H2 (proj1 (eff1_accts _ _ _ _ _ _ _ _ E)))) as Wbl.
  pose proof (of_int_nonneg dep ltac:(lia)) as Hdn.
  pose proof (if_tas _ _ _ _ _ _ (increase_balance_inv _ _ _ _ _ _ _ Hsv1 Wbl Hdn Hinc2)) as Fta.
  destruct (caps_cache _ _ _ _ Hcache) as (C1 & _ & C3 & _ & C5 & _). rewrite C1, C5.
  apply (deposit_under_cap _ _ _ _ _ _ _ Hsv1 Wbl Hdn) with (2 := Hinc2); [discriminate|lia|congruence|congruence].
Qed.

(* a successful borrow that created debt leaves total debt strictly below an active borrow limit, and
   total deposits >= total debt in any case (origination fee included) *)
Theorem C17_borrow_instruction_respects_limit_and_utilisation :
  forall w a b n w' hb hb', HOk2 w -> 0 <= n -> h_borrow w a b n = Ok w' ->
  nth_bank w b = Ok hb -> nth_bank w' b = Ok hb' ->
  (b_tls (hb_b hb) < b_tls (hb_b hb') -> b_bor_limit (hb_b hb) <> U64_MAX ->
     debt_of (hb_b hb') < of_int (b_bor_limit (hb_b hb'))) /\
  debt_of (hb_b hb') <= deposits_of (hb_b hb').
Proof.
  intros w a b n w' hb hb'.
  intros H2 Hn H Hb Hb'.
  destruct (h_borrow_effect _ _ _ _ _ H) as (hb0 & hb0' & ac & ac' & E & F).
  destruct (eff1_at _ _ _ _ _ _ _ _ _ _ E Hb Hb') as (-> & ->).
  destruct F as (bk1 & i & la1 & bl & pre & delta & ofee & bk2 & bl2 & bk4 & bk5 & Hacc & _ & _ & _ & Hloc & Hbl & Hpre & Hof & Hdec & _ & Hbook & Hcache & -> & _).
  destruct (HOk2_accrued _ _ _ _ H2 Hb Hacc) as (Hok & Hsv1 & _ & T2).
  pose proof (cs_bor_limit _ _ (accrue_frame _ _ _ _ Hacc)) as Fb.
  pose proof (created_slot_wf _ _ _ _ _ _ _ Hloc Hbl (acct_wf_of _ _ _ H2 (proj1 (eff1_accts _ _ _ _ _ _ _ _ E)))) as Wbl.
  pose proof Hok as (_ & _ & _ & _ & Hb1 & Hb2).
  destruct (orig_fee_inv _ _ _ _ (pre_fee_nonneg _ _ _ Hb1 Hb2 Hn Hpre) Hof) as (-> & Ho0).
  assert (Hdn : 0 <= of_int pre + ofee) by (pose proof (of_int_nonneg pre (pre_fee_nonneg _ _ _ Hb1 Hb2 Hn Hpre)); lia).
  destruct (borrow_under_cap_and_utilisation _ _ _ _ DecBorrowOnly _ _ Hsv1 Wbl Hdn ltac:(discriminate) Hdec) as (Hcap & Hutil).
  pose proof (df_tls _ _ _ _ _ _ (decrease_balance_inv _ _ _ _ _ _ _ Hsv1 Wbl Hdn Hdec)) as Ftl.
  destruct (caps_book_orig_fee _ _ _ _ Hbook) as (B1 & B2 & _ & B4 & _ & B6).
  destruct (caps_cache _ _ _ _ Hcache) as (C1 & C2 & _ & C4 & _ & C6).
  cbn [mk_hb set_hb_b hb_b]. rewrite C1, C2, C4, C6, B1, B2, B4, B6.
  split; [|exact Hutil]. intros Hinc Hlim. apply Hcap; [lia|congruence].
Qed.

(* a successful withdrawal (partial or all) leaves total deposits >= total debt *)
Theorem C17_withdraw_instruction_keeps_utilisation :
  forall w a b n all w' hb', HOk2 w -> 0 <= n -> h_withdraw w a b n all = Ok w' -> nth_bank w' b = Ok hb' ->
  debt_of (hb_b hb') <= deposits_of (hb_b hb').
Proof.
  intros w a b n all w' hb'.
  intros H2 Hn H Hb'.
  destruct (h_withdraw_effect _ _ _ _ _ _ H) as (hb & hb0' & ac & ac' & E & F).
  destruct (eff1_at _ _ _ _ _ _ _ _ _ _ E (proj1 E) Hb') as (_ & ->).
  destruct F as (bk1 & i & bl & bk2 & bl2 & pre & paid & bk3 & Hacc & _ & Hi & Hbl & Hprim & _ & _ & Hcache & -> & _).
  destruct (HOk2_accrued _ _ _ _ H2 (proj1 E) Hacc) as (Hok & Hsv1 & _).
  pose proof (nth_res_Forall _ _ _ _ Hbl (acct_wf_of _ _ _ H2 (proj1 (eff1_accts _ _ _ _ _ _ _ _ E)))) as Wbl.
  destruct (caps_cache _ _ _ _ Hcache) as (C1 & C2 & _). cbn [mk_hb set_hb_b hb_b]. rewrite C1, C2.
  destruct all; [exact (withdraw_all_utilisation _ _ _ _ _ _ Hsv1 Wbl Hprim)|].
  destruct Hprim as (Hpre & Hdec). pose proof Hok as (_ & _ & _ & _ & Hb1 & Hb2).
  pose proof (of_int_nonneg pre (pre_fee_nonneg _ _ _ Hb1 Hb2 Hn Hpre)) as Hdn.
  exact (proj2 (borrow_under_cap_and_utilisation _ _ _ _ DecWithdrawOnly _ _ Hsv1 Wbl Hdn ltac:(discriminate) Hdec)).
Qed.

Print Assumptions C17_deposit_instruction_respects_limit.
Print Assumptions C17_borrow_instruction_respects_limit_and_utilisation.
Print Assumptions C17_withdraw_instruction_keeps_utilisation.

(* a deposit flagged "up to limit" NEVER fails with BankAssetCapacityExceeded (nc r := r <> Err (E E_BankAssetCapacityExceeded)),
   from every well-formed world, for every amount: the capacity is computed on the accrued bank (fix 0857a8b8 in /repo) *)
Theorem C17_up_to_limit_never_fails_for_capacity :
  forall w a b n, HOk2 w -> 0 <= n -> h_deposit w a b n true <> Err (E E_BankAssetCapacityExceeded).
Proof.
  intros w a b n H2 Hn. change (nc (h_deposit w a b n true)). unfold h_deposit.
  apply nc_bind_ok; [apply nc_nth_bank|]. intros hb Hb.
  apply nc_bind_ok; [apply nc_nth_acct|]. intros ac Hac.
  apply nc_bind_ok; [apply nc_check; cne_err|]. intros u1 Htag. apply check_ok in Htag.
  apply nc_bind_ok; [apply nc_check; cne_err|]. intros u2 _.
  apply nc_bind_ok; [apply nc_validate_asset_tags|]. intros u3 _.
  apply nc_bind_ok; [apply nc_validate_bank_state|]. intros u4 _.
  apply nc_bind_ok; [apply nc_check; cne_err|]. intros u5 _.
  apply nc_bind_ok; [apply nc_accrue|]. intros bk1 Hacc.
  destruct (HOk2_accrued _ _ _ _ H2 Hb Hacc) as (Hok & Hsv1 & T1 & _). destruct (hb_ok_tot _ Hok) as (Ta & _).
  pose proof (cs_asset_tag _ _ (accrue_frame _ _ _ _ Hacc)) as Ft.
  apply nc_bind_ok.
  { apply nc_bind_ok; [apply nc_remaining_capacity|]. intros c _. apply nc_ok. }
  intros dep Hdep. apply bind_ok in Hdep as (c & Hc & Hdep). apply Ok_inj in Hdep.
  pose proof (capacity_nonneg _ _ Hc) as Hc0.
  destruct (dep =? 0) eqn:Ed; [apply nc_ok|].
  assert (Hd : 0 < dep <= c) by lia.
  apply nc_bind_ok; [apply nc_wrapper_find_or_create|]. intros [i la1] Hloc.
  apply nc_bind_ok; [apply nc_nth_res|]. intros bl Hbl.
  pose proof (created_slot_wf _ _ _ _ _ _ _ Hloc Hbl (acct_wf_of _ _ _ H2 Hac)) as Wbl.
  apply nc_bind_ok.
  { eapply increase_deposit_nc; try eassumption; [lia|]. rewrite Ft. apply marginfi_tag_not_drift. exact Htag. }
  intros [bk2 bl2] _.
  apply nc_bind_ok; [apply nc_pre_fee|]. intros pre _.
  apply nc_bind_ok; [apply nc_xfer_in|]. intros w2 _.
  apply nc_bind_ok; [apply nc_nth_bank|]. intros hb2 _.
  apply nc_bind_ok; [apply nc_update_bank_cache|]. intros bk3 _.
  apply nc_bind_ok; [apply nc_nth_acct|]. intros ac2 _. apply nc_ok.
Qed.

(* and it books exactly min(requested amount, remaining capacity of the accrued bank) *)
Theorem C17_up_to_limit_books_min :
  forall w a b n w' hb hb', h_deposit w a b n true = Ok w' -> nth_bank w b = Ok hb -> nth_bank w' b = Ok hb' ->
  exists bk1 c, accrue_interest (hb_b hb) (hw_pf w) (hw_now w) = Ok bk1 /\ remaining_deposit_capacity bk1 = Ok c /\
    ( (Z.min n c = 0 /\ hb' = set_hb_b bk1 hb)
      \/ exists ac i la1 bl bk2 bl2, nth_acct w a = Ok ac /\
           wrapper_find_or_create (bank_pk b) bk1 (ha_la ac) (hw_now w) = Ok (i, la1) /\ nth_res i la1 = Ok bl /\
           increase_balance bk1 bl (t64 w) (of_int (Z.min n c)) IncDepositOnly = Ok (bk2, bl2) /\
           b_tas (hb_b hb') = b_tas bk2 /\ b_asv (hb_b hb') = b_asv bk2 ).
Proof.
  intros w a b n w' hb hb'.
  intros H Hb Hb'.
  destruct (h_deposit_effect _ _ _ _ _ _ H) as (hb0 & hb0' & ac & ac' & E & F).
  destruct (eff1_at _ _ _ _ _ _ _ _ _ _ E Hb Hb') as (-> & ->).
  destruct F as (bk1 & dep & Hacc & _ & _ & Hdep & Hcase).
  apply bind_ok in Hdep as (c & Hc & Hdep). apply Ok_inj in Hdep as <-.
  exists bk1, c. split; [exact Hacc|]. split; [exact Hc|].
  destruct Hcase as [(Ed & -> & _) | (_ & i & la1 & bl & bk2 & bl2 & pre & f & bk3 & Hloc & Hbl & Hinc & _ & _ & Hcache & -> & _)].
  - left. split; [exact Ed|reflexivity].
  - right. destruct (caps_cache _ _ _ _ Hcache) as (_ & _ & C3 & _). destruct (NAV_cache _ _ _ _ Hcache) as (_ & C1 & _).
    exists ac, i, la1, bl, bk2, bl2. split; [exact (proj1 (eff1_accts _ _ _ _ _ _ _ _ E))|]. repeat split; assumption.
Qed.

Print Assumptions C17_up_to_limit_never_fails_for_capacity.
Print Assumptions C17_up_to_limit_books_min.
