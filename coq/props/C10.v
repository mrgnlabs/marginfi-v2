(* C10 — Receivership liquidation is bracketed, restricted, and cannot worsen health.
   Statements; each follows in a few lines from lemmas/TxLemmas.v and lemmas/TxWorldLemmas.v.
   Quantification: instruction lists / transactions of ANY length, any programs, any data, any
   marginfi state; the valuation functions, the bookkeeping of withdraw/repay/borrow/deposit and
   all other marginfi instructions are arbitrary (`R : env BW PF`).  K ranges over liquidation and
   deleverage: the deleverage bracket (C12) is the same code. *)
Require Import Base Fixed Constants TxConstants Tx TxSpec TxToy TxLemmas TxWorldLemmas.
Local Open Scope Z_scope.

(* (1) the languages accepted by the three validators and by validate_instructions *)
Theorem C10_validate_ix_first_language : forall ixes pid exp al,
  validate_ix_first ixes pid exp al = Ok tt <->
  exists pre x post, ixes = pre ++ x :: post /\ forallb (skip1 pid exp al) pre = true /\
                     tgt pid exp x = true /\ forallb (after1 pid exp) post = true.
Proof. exact validate_ix_first_spec. Qed.

Theorem C10_validate_ix_last_language : forall ixes pid exp,
  validate_ix_last ixes pid exp = Ok tt <-> exists pre y, ixes = pre ++ [y] /\ is_end pid exp y = true.
Proof. exact validate_ix_last_spec. Qed.

Theorem C10_validate_ixes_exclusive_language : forall ixes pid expected,
  validate_ixes_exclusive ixes pid expected = Ok tt <-> forallb (excl_ok pid expected) ixes = true.
Proof. exact validate_ixes_exclusive_spec. Qed.

Theorem C10_validate_instructions_language : forall ixes cur cpi K,
  validate_instructions ixes cur cpi K = Ok tt <->
  forallb (prog_allowed allowed_programs) ixes = true /\
  validate_ix_first ixes PMfi (start_disc K) allowed_pre = Ok tt /\
  validate_ix_last ixes PMfi (end_disc K) = Ok tt /\
  forallb (excl_ok PMfi (excl_list K)) ixes = true /\
  cpi = false /\
  (exists d, nth_z ixes cur = Some d /\ d_prog d = PMfi) /\
  cur < len_z ixes - 1.
Proof. exact validate_instructions_spec. Qed.

(* every accepted transaction is  skippable* start (listed instruction, not a start)* end  *)
Theorem C10_accepted_shape : forall ixes cur K,
  validate_instructions ixes cur false K = Ok tt ->
  exists pre x mid y,
    ixes = pre ++ x :: mid ++ [y] /\
    forallb (skip1 PMfi (start_disc K) allowed_pre) pre = true /\
    tgt PMfi (start_disc K) x = true /\
    forallb (mid_ok K) mid = true /\
    is_end PMfi (end_disc K) y = true /\
    forallb (prog_allowed allowed_programs) ixes = true /\
    forallb (excl_ok PMfi (excl_list K)) ixes = true.
Proof.
  intros ixes cur K H. apply validate_instructions_spec in H as (Hp & Hf & Hl & Hx & _).
  apply validate_ix_first_spec in Hf as (pre & x & post & -> & Hpre & Hx1 & Hpost).
  apply validate_ix_last_spec in Hl as (p2 & y & E & Hy).
  destruct post as [|y' mid] using rev_ind.
  - (* the start would also be the end *)
    apply app_inj_tail in E as [_ <-]. apply is_end_true in Hy as (_ & _ & D).
    apply tgt_is_end, is_end_true in Hx1 as (_ & _ & D'). destruct (start_ne_end K). congruence.
  - clear IHmid. rewrite app_comm_cons, app_assoc in E. apply app_inj_tail in E as [_ <-].
    rewrite forallb_app in Hpost. apply andb_prop in Hpost as [Hm _].
    exists pre, x, mid, y'. repeat split; try assumption.
    apply forallb_forall. intros d Hd. unfold mid_ok.
    assert (I : In d (pre ++ x :: mid ++ [y'])) by (rewrite !in_app_iff; cbn; rewrite in_app_iff; auto).
    rewrite (forallb_In Hp I), (forallb_In Hx I). exact (forallb_In Hm Hd).
Qed.

(* (2) the markers never survive a committed transaction *)
Theorem C10_no_marker_survives : forall (BW PF : Type) (R : env BW PF) (w w' : world BW PF) tx,
  clean_r w -> exec_tx R w tx = Some w' -> clean_r w'.
Proof.
  intros BW PF R w w' tx C H.
  destruct (tx_receivership R w w' tx C H) as [[C' _] | (K & a & i & c0 & T & _)]; [exact C'|].
  exact (track_clean R T).
Qed.

(* (3) a committed transaction in which a start for account a executed at top-level index i:
   the whole transaction has the accepted shape around i, its last instruction is the
   matching end FOR THE SAME ACCOUNT, the account was not in receivership and met the start
   condition when the start ran, and the end-time conditions hold in the final state
   relative to the snapshot c0 taken at the start *)
Theorem C10_bracket : forall (BW PF : Type) (R : env BW PF) (w w' : world BW PF) tx i K a,
  clean_r w -> exec_tx R w tx = Some w' -> start_at (map t_d tx) i K a ->
  validate_instructions (map t_d tx) i false K = Ok tt /\
  last_end (map t_d tx) K a /\
  exists l1 t l2 wi Ai c0,
    tx = l1 ++ t :: l2 /\ len_z l1 = i /\
    exec_from R (map t_d tx) 0 w l1 = Committed wi /\
    w_accts wi a = Some Ai /\ f_recv (a_fl Ai) = false /\
    start_cond R K c0 (w_bw wi) (a_pf Ai) /\
    final_facts R K c0 w' a.
Proof.
  intros BW PF R w w' tx i K a C H SA.
  destruct (tx_receivership R w w' tx C H) as [[_ NS] | (K' & a' & i' & c0 & T & S)].
  - destruct (NS i K a); [|exact SA]. destruct SA as (d & N & _). exact (nth_z_Some N).
  - destruct (track_unique R T SA) as (-> & -> & ->). destruct T as [_ _ V _ Fin].
    destruct (Fin eq_refl) as (_ & LE & FF). split; [exact V|]. split; [exact LE|].
    destruct S as (l1 & t & l2 & wi & Ai & S1 & S2 & S3 & S4 & S5 & S6). exists l1, t, l2, wi, Ai, c0.
    repeat (split; [assumption|]). exact FF.
Qed.

(* start: only at maintenance health <= 0 (liquidation), snapshot taken, introspection passed *)
Theorem C10_start : forall (BW PF : Type) (R : env BW PF) K ixes cur cpi (w : world BW PF) a recv w',
  h_start R K ixes cur cpi w a recv = Ok w' ->
  validate_instructions ixes cur cpi K = Ok tt /\
  exists A, w_accts w a = Some A /\ a_record A = true /\
    f_recv (a_fl A) = false /\ f_fl (a_fl A) = false /\ f_disabled (a_fl A) = false /\
    start_cond R K (ocache w' a) (w_bw w) (a_pf A) /\
    orc w' a = true /\ orv w' a = recv /\ (K = KDelev -> recv = w_risk_admin w) /\
    (forall k, k <> a -> w_accts w' k = w_accts w k).
Proof.
  intros BW PF R K ixes cur cpi w a recv w' H.
  apply h_start_ok in H as (-> & V & A & c & EA & Rec & [Ff Fr] & Fd & HD & SC & ->).
  split; [exact V|]. exists A. unfold ocache, orc, orv. cbn. rewrite Z.eqb_refl. cbn.
  repeat split; auto; try apply SC. intros k N. apply Z.eqb_neq in N. rewrite N. reflexivity.
Qed.

Theorem C10_end : forall (BW PF : Type) (R : env BW PF) K cpi (w : world BW PF) a s w',
  h_end R K cpi w a s = Ok w' ->
  cpi = false /\
  exists A, w_accts w a = Some A /\ f_recv (a_fl A) = true /\ a_recv A = s /\
    end_cond R K (a_cache A) (w_bw w) (a_pf A) (w_fee_max w) /\
    orc w' a = false /\ orv w' a = 0 /\ (K = KDelev -> odl w' a = false) /\
    (forall k, k <> a -> w_accts w' k = w_accts w k).
Proof.
  intros BW PF R K cpi w a s w' H. apply h_end_ok in H as (-> & A & EA & Fr & _ & Es & EC & ->).
  split; [reflexivity|]. exists A. unfold orc, orv, odl. cbn. rewrite Z.eqb_refl. cbn.
  repeat split; auto.
  - intros ->. reflexivity.
  - intros k N. apply Z.eqb_neq in N. rewrite N. reflexivity.
Qed.

(* the end-time conditions, numbers as in the property text: health not worse; for liquidation,
   unless the start-time equity assets were under $5: health not positive and
   seized <= repaid * (1 + max(fee_state premium, 5%)), 14073748835533 = I80F48 bits of 0.05 *)
Theorem C10_end_conditions : forall (BW PF : Type) (R : env BW PF) K c bw pf fee,
  end_cond R K c bw pf fee ->
  exists qa ql qae qle,
    e_maint R bw pf = Ok (qa, ql) /\ e_equity R bw pf = Ok (qae, qle) /\
    c_am c - c_lm c <= qa - ql /\
    (K = KLiq -> 5 * 2^48 <= c_ae c ->
       qa - ql <= 0 /\
       (0 <= fee < 2^64 -> - 2^100 <= c_le c - qle <= 2^100 ->
        (c_ae c - qae) * 2^48 <= (c_le c - qle) * (2^48 + Z.max fee 14073748835533))).
Proof.
  intros BW PF R K c bw pf fee (qa & ql & qae & qle & E1 & E2 & H1 & H2). exists qa, ql, qae, qle.
  split; [exact E1|]. split; [exact E2|]. split; [exact H1|]. intros HK Hth.
  destruct (H2 HK Hth) as [H3 H4]. split; [exact H3|]. intros Hf Hr.
  unfold LIQUIDATION_BONUS_FEE_MINIMUM, ONE in H4.
  replace (2^48 + Z.max fee 14073748835533) with (Z.max (2^48 + fee) (2^48 + 14073748835533)) by lia.
  apply premium_bound; [exact Hr | lia | exact H4].
Qed.

(* (4) neither start nor end (of any of the three brackets) runs via CPI *)
Theorem C10_not_via_cpi : forall (BW PF : Type) (R : env BW PF) (w : world BW PF),
  (forall K ixes cur a r, is_ok (h_start R K ixes cur true w a r) = false) /\
  (forall K a s, is_ok (h_end R K true w a s) = false) /\
  (forall ixes cur a au e, is_ok (h_start_fl ixes cur true w a au e) = false) /\
  (forall a au nr, is_ok (h_end_fl R true w a au nr) = false).
Proof. exact (@bracket_ops_not_in_cpi). Qed.

(* (5) what a third party can do, and the withdraw guard *)
Theorem C10_third_party_needs_receivership :
  forall (BW PF : Type) (R : env BW PF) (w : world BW PF) a s bank m al w' A,
  w_accts w a = Some A ->
  (h_withdraw R w a s bank m al = Ok w' \/ h_repay R w a s bank m al = Ok w') ->
  f_recv (a_fl A) = true \/ (f_frozen (a_fl A) = false /\ s = a_auth A) \/
  (f_frozen (a_fl A) = true /\ s = w_admin w /\ s <> a_auth A).
Proof.
  intros BW PF R w a s bank m al w' A EA [H|H].
  - apply h_withdraw_ok in H. destruct (touch_guard H EA) as [[G _] _]. exact (signer_auth_cases _ _ _ G).
  - apply h_repay_ok in H. destruct (touch_guard H EA) as [G _]. exact (signer_auth_cases _ _ _ G).
Qed.

Theorem C10_withdraw_guard : forall (BW PF : Type) (R : env BW PF) (w : world BW PF) a s bank m al w' A,
  w_accts w a = Some A -> f_recv (a_fl A) = true -> h_withdraw R w a s bank m al = Ok w' ->
  e_w_init R (w_bw w) bank <> 0 /\ exists p, e_price_low R (w_bw w) bank = Ok p /\ 0 < p.
Proof. exact (@withdraw_guard). Qed.

Theorem C10_receivership_blocks : forall (BW PF : Type) (R : env BW PF) (w : world BW PF) a A,
  w_accts w a = Some A -> f_recv (a_fl A) = true ->
  (forall K ixes cur cpi r, is_ok (h_start R K ixes cur cpi w a r) = false) /\
  (forall l s ab lb m, is_ok (h_liquidate R w l s a ab lb m) = false) /\
  (forall v s ab lb m, is_ok (h_liquidate R w a s v ab lb m) = false) /\
  (forall s b, is_ok (h_bankruptcy R w a s b) = false) /\
  (forall n s na, is_ok (h_transfer R w a n s na) = false) /\
  (forall s b m, is_ok (h_borrow R w a s b m) = false) /\
  (forall s b m, is_ok (h_deposit R w a s b m) = false) /\
  (forall ixes cur cpi au e, is_ok (h_start_fl ixes cur cpi w a au e) = false) /\
  (forall cpi au nr, is_ok (h_end_fl R cpi w a au nr) = false).
Proof.
  intros BW PF R w a A EA Fr. repeat split; intros; apply is_ok_false; intros v0 H.
  - apply h_start_ok in H as (_ & _ & A0 & _ & E0 & _ & [_ F] & _). congruence.
  - apply h_liquidate_ok in H as [_ H]. destruct (touch_guard H EA) as [_ F]. congruence.
  - apply h_liquidate_ok in H as [H _]. pose proof (touch_guard H EA) as F. cbn in F. congruence.
  - apply h_bankruptcy_ok in H. destruct (touch_guard H EA) as [_ F]. congruence.
  - apply h_transfer_ok in H. destruct (touch_guard H EA) as [_ F]. congruence.
  - apply h_borrow_ok in H. destruct (touch_guard H EA) as (_ & _ & F). specialize (F eq_refl). congruence.
  - apply h_deposit_ok in H. destruct (touch_guard H EA) as (_ & _ & F). specialize (F eq_refl). congruence.
  - apply h_start_fl_ok in H as (_ & A0 & E0 & _ & [_ F] & _). congruence.
  - apply h_end_fl_ok in H as (_ & A0 & E0 & _ & F & _). congruence.
Qed.

(* the dispatcher and the introspection code agree on the discriminators *)
Theorem C10_discriminators_agree :
  DISP_SL = IX_SL /\ DISP_SD = IX_SD /\ DISP_EL = IX_EL /\ DISP_ED = IX_ED /\ DISP_SF = IX_SF /\
  DISP_EF = IX_EF /\ DISP_WD = IX_WD /\ DISP_RP = IX_RP /\ DISP_IR = IX_IR /\ DISP_KW = IX_KW /\ DISP_DW = IX_DW.
Proof. repeat split; reflexivity. Qed.

(* Non-vacuity: an unhealthy account (100 C at $10, maint weight 0.75; debt 800 L at $1) is taken
   into receivership by a third party (signer 20), 5 C are seized for 60 L repaid, the transaction
   [budget; start; withdraw; repay; end] commits, and all hypotheses of C10_bracket hold for it;
   the same transaction without the end, or with a borrow in between, does not commit. *)
Definition ex_bw : tbw :=
  [(31, mkTB (10 * ONE) (ONE / 2) (3 * ONE / 4) ONE ONE 6); (32, mkTB ONE ONE ONE (5 * ONE / 4) ONE 6)].
Definition ex_A : acct tpf :=
  mkA fl_zero 11 false true 0 c4_zero [(31, (100000000, 0)); (32, (0, 800000000))] false.
Definition ex_w : world tbw tpf := toy_world [(1, ex_A)] ex_bw 21 21 (ONE / 10).
Definition ex_tx : list top_ix :=
  map top [mk_CB; mk_SL 1 20; mk_WD 1 20 31 5000000; mk_RP 1 20 32 60000000; mk_EL 1 20].

Example C10_nonvacuous :
  clean_r ex_w /\
  (exists d, nth_z (map t_d ex_tx) 1 = Some d /\ d_prog d = PMfi /\ 8 <= d_len d /\ d_disc d = start_disc KLiq /\ hd_is 1 d) /\
  (match toy_exec_tx ex_w ex_tx with
   | Some w' => orc w' 1 = false /\ orv w' 1 = 0 /\
                ocache w' 1 = mkC4 (750 * ONE) (800 * ONE) (1000 * ONE) (800 * ONE) /\
                (match w_accts w' 1 with Some a => a_pf a = [(31, (95000000, 0)); (32, (0, 740000000))] | None => False end)
   | None => False end) /\
  toy_exec_tx ex_w (map top [mk_SL 1 20; mk_WD 1 20 31 5000000; mk_RP 1 20 32 60000000]) = None /\
  toy_exec_tx ex_w (map top [mk_SL 1 20; mk_BR 1 11 32 1; mk_EL 1 20]) = None /\
  toy_exec_tx ex_w (map top [mk_SL 1 20; mk_WD 1 20 31 5000000; mk_RP 1 20 32 40000000; mk_EL 1 20]) = None.
Proof.
  split; [intros k; unfold orc, odl, orv, ex_w, toy_world; cbn [w_accts assoc]; destruct (1 =? k); cbn; auto|].
  split; [eexists; split; [reflexivity|]; repeat split; try (vm_compute; congruence); eexists; reflexivity|].
  vm_compute. repeat split; reflexivity.
Qed.

(* Known finding `mfi-cpi-inside-bracket` (known_findings.json): C10_bracket restricts the TOP-LEVEL
   instructions (`map t_d tx`); the literal "none via CPI" does not extend to marginfi instructions
   that an allow-listed program invokes by CPI between start and end.  Witness: account 2 borrows
   through a CPI from the Jupiter program id in the middle of account 1's receivership, and the
   transaction commits (replayed on the real handlers by the case line of the finding). *)
Definition ex_B : acct tpf :=
  mkA fl_zero 12 false true 0 c4_zero [(31, (100000000, 0)); (32, (0, 100000000))] false.
Definition ex_w2 : world tbw tpf := toy_world [(1, ex_A); (2, ex_B)] ex_bw 21 21 (ONE / 10).
Definition ex_tx_cpi : list top_ix :=
  [top (mk_SL 1 20); proxy PJup (mk_BR 2 12 32 1000000); top (mk_WD 1 20 31 5000000);
   top (mk_RP 1 20 32 60000000); top (mk_EL 1 20)].

Theorem C10_none_via_cpi_refuted :
  exists (w : world tbw tpf) tx w' i t d,
    clean_r w /\ toy_exec_tx w tx = Some w' /\ start_at (map t_d tx) 0 KLiq 1 /\
    nth_z tx i = Some t /\ 0 < i < len_z tx - 1 /\ d_prog (t_d t) <> PMfi /\
    In d (t_inner t) /\ d_prog d = PMfi /\ d_disc d = IX_BR /\
    (match w_accts w 2, w_accts w' 2 with
     | Some b, Some b' => a_pf b = [(31, (100000000, 0)); (32, (0, 100000000))] /\
                          a_pf b' = [(31, (100000000, 0)); (32, (0, 101000000))]
     | _, _ => False end).
Proof.
  exists ex_w2, ex_tx_cpi. eexists. exists 1. eexists. eexists.
  split; [intros k; unfold orc, odl, orv, ex_w2, toy_world; cbn [w_accts assoc];
          destruct (1 =? k); [cbn; auto|]; destruct (2 =? k); cbn; auto|].
  split; [vm_compute; reflexivity|].
  split; [eexists; split; [reflexivity|]; repeat split; try (vm_compute; congruence); eexists; reflexivity|].
  split; [reflexivity|]. split; [vm_compute; split; reflexivity|]. split; [cbn; discriminate|].
  split; [left; reflexivity|]. split; [reflexivity|]. split; [reflexivity|]. vm_compute. split; reflexivity.
Qed.

Print Assumptions C10_validate_ix_first_language.
Print Assumptions C10_validate_ix_last_language.
Print Assumptions C10_validate_ixes_exclusive_language.
Print Assumptions C10_validate_instructions_language.
Print Assumptions C10_accepted_shape.
Print Assumptions C10_no_marker_survives.
Print Assumptions C10_bracket.
Print Assumptions C10_start.
Print Assumptions C10_end.
Print Assumptions C10_end_conditions.
Print Assumptions C10_not_via_cpi.
Print Assumptions C10_third_party_needs_receivership.
Print Assumptions C10_withdraw_guard.
Print Assumptions C10_receivership_blocks.
Print Assumptions C10_discriminators_agree.
Print Assumptions C10_none_via_cpi_refuted.
