(* CurveLemmas.v — behind C18: for every configuration accepted by validate_seven_point the seven-point curve
   is a walk (seg) over a chain of converted points, on which it is total, bounded, monotone and interpolating.
   Then the rates that calc_interest_rate builds on the base rate, and the legacy three-point curve. *)
Require Import Base Constants Fixed Curve FixedLemmas.
From Coq Require Import ZifyBool.
Local Open Scope Z_scope.

(* exact values of the u32 -> I80F48 conversions *)
Definition Uf (u : Z) : Z := u * ONE / U32_MAXZ.
Definition Rf (r : Z) : Z := (r * ONE / U32_MAXZ) * 10.

Ltac consts := rewrite ?ONE_val, ?U32_MAXZ_val, ?I128_MAX_val, ?I128_MIN_val in *.

Lemma U32_MAXZ_le_ONE : 0 < U32_MAXZ <= ONE.
Proof. rewrite U32_MAXZ_val, ONE_val. lia. Qed.

(* Uf scales [0, U32_MAXZ] onto [0, ONE], flooring; the scale factor is at least 1, so it is strictly monotone *)
Lemma Uf_range u : 0 <= u <= U32_MAXZ -> 0 <= Uf u <= ONE.
Proof. pose proof U32_MAXZ_le_ONE. apply div_frac_le; lia. Qed.
Lemma Uf_strict u v : u < v -> Uf u < Uf v.
Proof. apply div_frac_strict, U32_MAXZ_le_ONE. Qed.
Lemma Uf_pos u : 0 < u -> 0 < Uf u.
Proof. exact (Uf_strict 0 u). Qed.
Lemma Uf_max : Uf U32_MAXZ = ONE.
Proof. reflexivity. Qed.
Lemma Rf_range r : 0 <= r <= U32_MAXZ -> 0 <= Rf r <= 10 * ONE.
Proof. intros H. pose proof (Uf_range r H). unfold Rf, Uf in *. lia. Qed.
Lemma Rf_mono r s : r <= s -> Rf r <= Rf s.
Proof. intros H. pose proof U32_MAXZ_le_ONE. pose proof (div_frac_mono r s U32_MAXZ ONE). unfold Rf. lia. Qed.

Lemma util_from_u32_eq u : 0 <= u <= U32_MAXZ -> util_from_u32 u = Ok (Uf u).
Proof.
  intros H. pose proof U32_MAXZ_le_ONE. pose proof (Uf_range u H). unfold util_from_u32, of_int.
  assert (E : u * ONE * ONE / (U32_MAXZ * ONE) = Uf u) by (apply Z.div_mul_cancel_r; lia).
  rewrite wdiv_ok; rewrite ?E; [reflexivity | nia | nia | rewrite I128_MAX_val, ONE_val in *; lia].
Qed.

Lemma rate_from_u32_eq r : 0 <= r <= U32_MAXZ -> rate_from_u32 r = Ok (Rf r).
Proof.
  intros H. pose proof (Uf_range r H). unfold rate_from_u32. fold (util_from_u32 r). rewrite util_from_u32_eq by assumption.
  cbn [bind]. unfold wmul, mul_raw, of_int, Rf. fold (Uf r). f_equal.
  replace (Uf r * (10 * ONE)) with (Uf r * 10 * ONE) by ring.
  rewrite Z.div_mul by (pose proof ONE_pos; lia). apply wrap128_id. consts; lia.
Qed.

Definition lerp_val (sx sy ex ey tx : Z) : Z :=
  sy + (ey - sy) * ((tx - sx) * ONE / (ex - sx)) / ONE.

Lemma lerp_eq sx sy ex ey tx :
  0 <= sx -> sx < ex -> ex <= ONE -> sx <= tx <= ex -> 0 <= sy <= ey -> ey <= 10 * ONE ->
  lerp sx sy ex ey tx = Ok (lerp_val sx sy ex ey tx).
Proof.
  intros H0 H1 H2 H3 H4 H5. unfold lerp, lerp_val.
  replace (ex <=? sx) with false by lia. replace (tx <? sx) with false by lia.
  replace (ex <? tx) with false by lia. replace (ey <? sy) with false by lia.
  rewrite usub_ok by (consts; lia). cbn [bind].
  replace (ex - sx =? 0) with false by lia.
  rewrite usub_ok by (consts; lia). cbn [bind].
  pose proof (div_frac_le (tx - sx) (ex - sx) ONE ltac:(lia) ltac:(consts; lia) ltac:(lia)) as Hp.
  rewrite wdiv_ok by (consts; lia). cbn [bind].
  rewrite usub_ok by (consts; lia). cbn [bind].
  pose proof (mul_div_le (ey - sy) ((tx - sx) * ONE / (ex - sx)) ONE ONE_pos ltac:(lia) Hp) as Hs.
  rewrite cmul_ok by (consts; lia). cbn [bind].
  rewrite uadd_ok by (consts; lia). reflexivity.
Qed.

Lemma lerp_val_bounds sx sy ex ey tx :
  sx < ex -> sx <= tx <= ex -> sy <= ey -> sy <= lerp_val sx sy ex ey tx <= ey.
Proof.
  intros H1 H3 H4. unfold lerp_val.
  pose proof (div_frac_le (tx - sx) (ex - sx) ONE ltac:(lia) ltac:(consts; lia) ltac:(lia)) as Hp.
  pose proof (mul_div_le (ey - sy) ((tx - sx) * ONE / (ex - sx)) ONE ONE_pos ltac:(lia) Hp). lia.
Qed.

Lemma lerp_val_mono sx sy ex ey t1 t2 :
  sx < ex -> sy <= ey -> t1 <= t2 -> lerp_val sx sy ex ey t1 <= lerp_val sx sy ex ey t2.
Proof.
  intros H1 H4 Ht. unfold lerp_val.
  pose proof (div_frac_mono (t1 - sx) (t2 - sx) (ex - sx) ONE ltac:(lia) ltac:(consts; lia) ltac:(lia)).
  pose proof (mul_div_mono (ey - sy) _ _ ONE ONE_pos ltac:(lia) H). lia.
Qed.

Lemma lerp_val_end sx sy ex ey : sx < ex -> lerp_val sx sy ex ey ex = ey.
Proof.
  intros H. unfold lerp_val.
  replace ((ex - sx) * ONE / (ex - sx)) with ONE by (rewrite Z.mul_comm, Z.div_mul; lia).
  rewrite Z.div_mul by (consts; lia). lia.
Qed.

Lemma lerp_val_start sx sy ex ey : sx < ex -> lerp_val sx sy ex ey sx = sy.
Proof.
  intros H. unfold lerp_val. rewrite Z.sub_diag, Z.mul_0_l, Z.div_0_l by lia.
  rewrite Z.mul_0_r, Z.div_0_l by (consts; lia). lia.
Qed.

(* cpts: the converted points (util, rate), as fixed-point numbers *)
Fixpoint seg (cpts : list (Z * Z)) (pu pr ur hr : Z) : res Z :=
  match cpts with
  | [] => lerp pu pr ONE hr ur
  | (u, r) :: rest => if ur <=? u then lerp pu pr u r ur else seg rest u r ur hr
  end.

Fixpoint chain (pu pr : Z) (cpts : list (Z * Z)) (hr : Z) : Prop :=
  match cpts with
  | [] => pu <= ONE /\ pr <= hr
  | (u, r) :: rest => pu < u /\ u <= ONE /\ pr <= r /\ chain u r rest hr
  end.

Lemma chain_hr pu pr cpts hr : chain pu pr cpts hr -> pr <= hr.
Proof.
  revert pu pr; induction cpts as [|[u r] rest IH]; cbn; intros pu pr H; [lia|].
  destruct H as (_ & _ & Hr & Hc). specialize (IH _ _ Hc). lia.
Qed.

Lemma seg_ok cpts : forall pu pr ur hr,
  chain pu pr cpts hr -> 0 <= pu <= ur -> ur <= ONE -> 0 <= pr -> hr <= 10 * ONE ->
  exists v, seg cpts pu pr ur hr = Ok v /\ pr <= v <= hr.
Proof.
  induction cpts as [|[u r] rest IH]; cbn [seg chain]; intros pu pr ur hr Hc Hu H1 Hpr Hhr.
  - destruct Hc as [Hc1 Hc2].
    destruct (Z.eq_dec pu ONE) as [->|Hne].
    + unfold lerp. replace (ONE <=? ONE) with true by lia. exists pr; split; [reflexivity | lia].
    + rewrite lerp_eq by lia. eexists; split; [reflexivity|].
      pose proof (lerp_val_bounds pu pr ONE hr ur ltac:(lia) ltac:(lia) Hc2). lia.
  - destruct Hc as (Hc1 & Hc2 & Hc3 & Hc4). pose proof (chain_hr _ _ _ _ Hc4) as Hrh.
    destruct (ur <=? u) eqn:E.
    + rewrite lerp_eq by lia. eexists; split; [reflexivity|].
      pose proof (lerp_val_bounds pu pr u r ur ltac:(lia) ltac:(lia) Hc3). lia.
    + destruct (IH u r ur hr Hc4 ltac:(lia) H1 ltac:(lia) Hhr) as (v & Hv & Hb).
      exists v; split; [assumption | lia].
Qed.

Lemma seg_mono cpts : forall pu pr u1 u2 hr v1 v2,
  chain pu pr cpts hr -> 0 <= pu <= u1 -> u1 <= u2 -> u2 <= ONE -> 0 <= pr -> hr <= 10 * ONE ->
  seg cpts pu pr u1 hr = Ok v1 -> seg cpts pu pr u2 hr = Ok v2 -> v1 <= v2.
Proof.
  induction cpts as [|[u r] rest IH]; cbn [seg chain]; intros pu pr u1 u2 hr v1 v2 Hc Hu H12 H2 Hpr Hhr E1 E2.
  - destruct Hc as [Hc1 Hc2].
    destruct (Z.eq_dec pu ONE) as [->|Hne].
    + unfold lerp in *. replace (ONE <=? ONE) with true in * by lia. inversion E1; inversion E2; lia.
    + rewrite lerp_eq in E1, E2 by lia. inversion E1; inversion E2; subst.
      apply lerp_val_mono; lia.
  - destruct Hc as (Hc1 & Hc2 & Hc3 & Hc4). pose proof (chain_hr _ _ _ _ Hc4) as Hrh.
    destruct (u1 <=? u) eqn:F1; destruct (u2 <=? u) eqn:F2; try lia.
    + rewrite lerp_eq in E1, E2 by lia. inversion E1; inversion E2; subst. apply lerp_val_mono; lia.
    + rewrite lerp_eq in E1 by lia. inversion E1; subst.
      pose proof (lerp_val_bounds pu pr u r u1 ltac:(lia) ltac:(lia) Hc3).
      destruct (seg_ok rest u r u2 hr Hc4 ltac:(lia) H2 ltac:(lia) Hhr) as (v & Hv & Hb).
      rewrite Hv in E2; inversion E2; subst. lia.
    + eapply (IH u r u1 u2 hr); eauto; lia.
Qed.

Lemma chain_lt cpts : forall pu pr hr u r, chain pu pr cpts hr -> In (u, r) cpts -> pu < u.
Proof.
  induction cpts as [|[a b] rest IH]; cbn [chain In]; intros pu pr hr u r Hc Hin; [tauto|].
  destruct Hc as (? & ? & ? & Hc5). destruct Hin as [Heq|Hin]; [inversion Heq; subst; lia|].
  specialize (IH _ _ _ _ _ Hc5 Hin). lia.
Qed.

Lemma seg_hits cpts : forall pu pr hr u r,
  chain pu pr cpts hr -> 0 <= pu -> 0 <= pr -> hr <= 10 * ONE ->
  In (u, r) cpts -> seg cpts pu pr u hr = Ok r.
Proof.
  induction cpts as [|[u0 r0] rest IH]; cbn [seg chain In]; intros pu pr hr u r Hc Hpu Hpr Hhr Hin; [tauto|].
  destruct Hc as (Hc1 & Hc2 & Hc3 & Hc4). pose proof (chain_hr _ _ _ _ Hc4) as Hrh.
  destruct Hin as [Heq | Hin].
  - inversion Heq; subst. replace (u <=? u) with true by lia.
    rewrite lerp_eq by lia. f_equal. apply lerp_val_end; lia.
  - assert (Hlt : u0 < u) by (eapply chain_lt; eauto).
    replace (u <=? u0) with false by lia. apply IH; auto; lia.
Qed.

Lemma seg_at_zero cpts pr hr : chain 0 pr cpts hr -> 0 <= pr -> hr <= 10 * ONE -> seg cpts 0 pr 0 hr = Ok pr.
Proof.
  destruct cpts as [|[u r] rest]; cbn [seg chain]; intros Hc Hpr Hhr.
  - destruct Hc. rewrite lerp_eq by (consts; lia). f_equal. apply lerp_val_start. consts; lia.
  - destruct Hc as (? & ? & ? & Hc4). pose proof (chain_hr _ _ _ _ Hc4). replace (0 <=? u) with true by lia.
    rewrite lerp_eq by lia. f_equal. apply lerp_val_start; lia.
Qed.

(* value at utilisation 1.0: the hundred rate unless a point sits exactly at 1.0 *)
Lemma seg_at_one cpts : forall pu pr hr,
  chain pu pr cpts hr -> 0 <= pu < ONE -> 0 <= pr -> hr <= 10 * ONE ->
  (forall u r, In (u, r) cpts -> u < ONE) -> seg cpts pu pr ONE hr = Ok hr.
Proof.
  induction cpts as [|[u r] rest IH]; cbn [seg chain]; intros pu pr hr Hc Hpu Hpr Hhr Hall.
  - destruct Hc. rewrite lerp_eq by lia. f_equal. apply lerp_val_end; lia.
  - destruct Hc as (? & ? & ? & Hc4). pose proof (Hall u r (or_introl eq_refl)).
    replace (ONE <=? u) with false by lia. apply IH; auto; try lia.
    intros; eapply Hall; right; eauto.
Qed.

Definition used_of (pts : list rate_point) := filter (fun p => negb (rp_util p =? 0)) pts.
Definition conv (used : list rate_point) : list (Z * Z) := map (fun p => (Uf (rp_util p), Rf (rp_rate p))) used.
Definition pt_ok (p : rate_point) := 0 <= rp_util p <= U32_MAXZ /\ 0 <= rp_rate p <= U32_MAXZ.

Lemma mpc_loop_seg pts : forall pu pr ur hr,
  Forall pt_ok pts -> mpc_loop pts pu pr ur hr = seg (conv (used_of pts)) pu pr ur hr.
Proof.
  induction pts as [|p rest IH]; intros pu pr ur hr Hf; cbn [mpc_loop used_of filter conv map seg]; [reflexivity|].
  inversion Hf as [|? ? [Hu Hr] Hf']; subst.
  destruct (rp_util p =? 0) eqn:E; cbn [negb].
  - apply IH; assumption.
  - cbn [conv map seg]. rewrite util_from_u32_eq, rate_from_u32_eq by assumption. cbn [bind].
    destruct (ur <=? Uf (rp_util p)); [reflexivity|]. apply IH; assumption.
Qed.

Lemma collect_used_spec pts : forall sp used,
  collect_used pts sp = Ok used -> used = used_of pts.
Proof.
  induction pts as [|p rest IH]; cbn [collect_used used_of filter]; intros sp used H.
  - inversion H; reflexivity.
  - destruct (rp_util p =? 0) eqn:E; cbn [negb].
    + destruct (negb (rp_rate p =? 0)); [discriminate|]. eapply IH; eauto.
    + destruct sp; [discriminate|].
      destruct (collect_used rest false) as [u|e] eqn:F; cbn [bind] in H; [|discriminate].
      inversion H; subst. f_equal. eapply IH; eauto.
Qed.

Fixpoint asc (l : list rate_point) : Prop :=
  match l with
  | a :: ((b :: _) as tl) => rp_util a < rp_util b /\ rp_rate a <= rp_rate b /\ asc tl
  | _ => True
  end.

Lemma check_ascending_spec l : check_ascending l = Ok tt -> asc l.
Proof.
  induction l as [|a [|b tl] IH]; cbn [check_ascending asc]; intros H; auto.
  destruct (rp_util b <=? rp_util a) eqn:E1; [discriminate|].
  destruct (rp_rate b <? rp_rate a) eqn:E2; [discriminate|].
  repeat split; try lia. apply IH; assumption.
Qed.

Lemma chain_of_asc used : forall pu pr hr,
  asc used -> Forall pt_ok used ->
  Forall (fun p => rp_rate p <= hr) used ->
  (match used with [] => True | p :: _ => pu < Uf (rp_util p) /\ pr <= Rf (rp_rate p) end) ->
  pu <= ONE -> pr <= Rf hr ->
  chain pu pr (conv used) (Rf hr).
Proof.
  induction used as [|a tl IH]; cbn [conv map chain]; intros pu pr hr Hasc Hok Hb Hhd Hpu Hpr; [lia|].
  inversion Hok as [|? ? [Hau Har] Hok']; subst. inversion Hb as [|? ? Hab Hb']; subst.
  destruct Hhd as [Hh1 Hh2]. pose proof (Uf_range _ Hau).
  repeat split; try lia.
  apply (IH _ _ hr); auto.
  - destruct tl as [|b tl']; cbn in Hasc; tauto.
  - destruct tl as [|b tl']; [exact I|]. cbn in Hasc. destruct Hasc as (H1 & H2 & _).
    split; [apply Uf_strict; lia | apply Rf_mono; lia].
  - lia.
  - apply Rf_mono; lia.
Qed.

Definition cfg_ok (c : ir_config) : Prop :=
  0 <= ir_zero c <= U32_MAXZ /\ 0 <= ir_hundred c <= U32_MAXZ /\ Forall pt_ok (ir_points c).

Lemma valid_chain c :
  cfg_ok c -> validate_seven_point c = Ok tt ->
  chain 0 (Rf (ir_zero c)) (conv (used_of (ir_points c))) (Rf (ir_hundred c)).
Proof.
  intros (Hz & Hh & Hp) Hv. unfold validate_seven_point in Hv.
  destruct (collect_used (ir_points c) false) as [used|e] eqn:Ecu; cbn [bind] in Hv; [|discriminate].
  pose proof (collect_used_spec _ _ _ Ecu) as ->.
  destruct (check_ascending (used_of (ir_points c))) as [[]|e] eqn:Eca; cbn [bind] in Hv; [|discriminate].
  unfold check in Hv.
  destruct (ir_zero c <=? ir_hundred c) eqn:Ezh; cbn [bind] in Hv; [|discriminate].
  destruct (forallb _ (used_of (ir_points c))) eqn:Efa; [|discriminate].
  rewrite forallb_forall in Efa.
  apply chain_of_asc.
  - apply check_ascending_spec; assumption.
  - apply (incl_Forall (incl_filter _ _)); assumption.
  - apply Forall_forall. intros p Hin. specialize (Efa p Hin). lia.
  - destruct (used_of (ir_points c)) as [|p tl] eqn:Eu; [exact I|].
    specialize (Efa p (or_introl eq_refl)).
    assert (Hin : In p (used_of (ir_points c))) by (rewrite Eu; left; reflexivity).
    unfold used_of in Hin. apply filter_In in Hin as [Hin Hnz].
    rewrite Forall_forall in Hp. destruct (Hp p Hin) as [Hpu _].
    split; [apply Uf_pos; lia | apply Rf_mono; lia].
  - consts; lia.
  - apply Rf_mono; lia.
Qed.

Lemma clamp01_range ur : 0 <= clamp01 ur <= ONE.
Proof. unfold clamp01, fmin, fmax. consts. lia. Qed.
Lemma clamp01_mono a b : a <= b -> clamp01 a <= clamp01 b.
Proof. unfold clamp01, fmin, fmax. consts. lia. Qed.
Lemma clamp01_id ur : 0 <= ur <= ONE -> clamp01 ur = ur.
Proof. unfold clamp01, fmin, fmax. lia. Qed.

Lemma mpc_eq c ur : cfg_ok c ->
  mpc c ur = seg (conv (used_of (ir_points c))) 0 (Rf (ir_zero c)) (clamp01 ur) (Rf (ir_hundred c)).
Proof.
  intros (Hz & Hh & Hp). unfold mpc. rewrite !rate_from_u32_eq by assumption. cbn [bind].
  apply mpc_loop_seg; assumption.
Qed.

Lemma curve_defined_bounded c ur :
  cfg_ok c -> validate_seven_point c = Ok tt ->
  exists r, mpc c ur = Ok r /\ Rf (ir_zero c) <= r <= Rf (ir_hundred c).
Proof.
  intros Hc Hv. rewrite mpc_eq by assumption. destruct Hc as (Hz & Hh & Hp).
  pose proof (clamp01_range ur). pose proof (Rf_range _ Hz). pose proof (Rf_range _ Hh).
  apply seg_ok; try lia. apply valid_chain; [unfold cfg_ok; tauto | assumption].
Qed.




Definition fees_ok (c : ir_config) (pf : prog_fees) (B : Z) : Prop :=
  0 <= ir_ins_rate c <= B /\ 0 <= ir_grp_rate c <= B /\ 0 <= ir_ins_fixed c <= B /\ 0 <= ir_grp_fixed c <= B /\
  0 <= pf_rate pf <= B /\ 0 <= pf_fixed pf <= B.

Lemma rate_mul_bound base x B : 0 <= base <= 10 * ONE -> 0 <= x <= B -> 0 <= base * x / ONE <= 10 * B.
Proof.
  intros Hb Hx. pose proof ONE_pos. split; [apply Z.div_pos; nia|].
  apply Z.div_le_upper_bound; [lia|]. replace (ONE * (10 * B)) with (10 * ONE * B) by ring. apply Z.mul_le_mono_nonneg; lia.
Qed.

Lemma calc_fee_rate_ok B base rf ff :
  11 * B <= I128_MAX -> 0 <= base <= 10 * ONE -> 0 <= rf <= B -> 0 <= ff <= B ->
  exists v, calc_fee_rate base rf ff = Ok v /\ 0 <= v.
Proof.
  intros HB Hb Hr Hf. unfold calc_fee_rate. destruct (rf =? 0); [exists ff; split; [reflexivity|lia]|].
  pose proof (rate_mul_bound base rf _ Hb Hr).
  rewrite cmul_ok by (consts; lia). cbn [bind]. rewrite cadd_ok by (consts; lia).
  eexists; split; [reflexivity | lia].
Qed.


Lemma assert_ok b u : assert b = Ok u -> b = true.
Proof. unfold assert. destruct b; [reflexivity | discriminate]. Qed.

Lemma calc_fee_rate_bounds base rf ff v : calc_fee_rate base rf ff = Ok v ->
  v * ONE <= base * rf + ff * ONE < v * ONE + ONE.
Proof.
  unfold calc_fee_rate. pose proof ONE_pos as HO. destruct (rf =? 0) eqn:E; intros H.
  - apply Ok_inj in H. subst v. replace rf with 0 by lia. lia.
  - apply bind_ok in H as (m & Hm & H). apply cmul_inv in Hm as [-> _]. apply cadd_inv in H as [-> _].
    pose proof (floor_bounds (base * rf) ONE HO). lia.
Qed.

(* the five rates returned by calc_interest_rate are non-negative (the code asserts it); the lending rate
   is the base rate times the utilisation; the borrow rate exceeds base + the three fee rates by at most
   3 ulps (one floor each) *)
Record rates_facts (c : ir_config) (pf : prog_fees) (ur : fx) (r : rates) : Prop := {
  rf_lend0 : 0 <= r_lending r;
  rf_bor0 : 0 <= r_borrowing r;
  rf_grp0 : 0 <= r_group r;
  rf_ins0 : 0 <= r_insurance r;
  rf_prot0 : 0 <= r_protocol r;
  rf_lend : r_lending r = r_base r * ur / ONE;
  rf_prot_off : pf_on pf = false -> r_protocol r = 0;
  rf_sum : r_base r + r_group r + r_insurance r + r_protocol r <= r_borrowing r
           <= r_base r + r_group r + r_insurance r + r_protocol r + 3;
  rf_seven : ir_curve_type c = INTEREST_CURVE_SEVEN_POINT -> mpc c ur = Ok (r_base r)
}.

Lemma calc_interest_rate_facts c pf ur r : calc_interest_rate c pf ur = Ok r -> rates_facts c pf ur r.
Proof.
  intros H. unfold calc_interest_rate in H. pose proof ONE_pos as HO.
  apply bind_ok in H as (f1 & Hf1 & H). apply uadd_inv in Hf1 as [-> _].
  apply bind_ok in H as (f2 & Hf2 & H). apply uadd_inv in Hf2 as [-> _].
  apply bind_ok in H as (f3 & Hf3 & H). apply uadd_inv in Hf3 as [-> _].
  apply bind_ok in H as (f4 & Hf4 & H). apply uadd_inv in Hf4 as [-> _].
  apply bind_ok in H as (base & Hbase & H).
  apply bind_ok in H as (lend & Hl & H). apply cmul_inv in Hl as [-> _].
  apply bind_ok in H as (onef & Ho & H). apply cadd_inv in Ho as [-> _].
  apply bind_ok in H as (b0 & Hb0 & H). apply cmul_inv in Hb0 as [-> _].
  apply bind_ok in H as (bor & Hbor & H). apply cadd_inv in Hbor as [-> _].
  apply bind_ok in H as (g & Hg & H). pose proof (calc_fee_rate_bounds _ _ _ _ Hg).
  apply bind_ok in H as (i & Hi & H). pose proof (calc_fee_rate_bounds _ _ _ _ Hi).
  apply bind_ok in H as (p & Hp & H). pose proof (calc_fee_rate_bounds _ _ _ _ Hp).
  apply bind_ok in H as (u1 & A1 & H). apply assert_ok in A1.
  apply bind_ok in H as (u2 & A2 & H). apply assert_ok in A2.
  apply bind_ok in H as (u3 & A3 & H). apply assert_ok in A3.
  apply bind_ok in H as (u4 & A4 & H). apply assert_ok in A4.
  apply bind_ok in H as (u5 & A5 & H). apply assert_ok in A5.
  apply Ok_inj in H. subst r.
  constructor; cbn [r_lending r_borrowing r_group r_insurance r_protocol r_base]; [lia .. | reflexivity | | |].
  - intros Hoff. rewrite Hoff in Hp. apply Ok_inj in Hp. auto.
  - match goal with |- context [?n / ONE] => pose proof (floor_bounds n ONE HO) end.
    rewrite ONE_val in *. lia.
  - intros Hct. rewrite Hct in Hbase. exact Hbase.
Qed.

(* two interpolation segments: (0, 0) - (optimal, plateau) and (optimal, plateau) - (1, max) *)
Definition legacy_val (c : ir_config) (ur : Z) : Z :=
  if ur <=? ir_optimal c then lerp_val 0 0 (ir_optimal c) (ir_plateau c) ur
  else lerp_val (ir_optimal c) (ir_plateau c) ONE (ir_max c) ur.

Lemma validate_legacy_inv c : validate_legacy c = Ok tt -> 0 < ir_optimal c < ONE /\ 0 < ir_plateau c < ir_max c.
Proof.
  unfold validate_legacy, check. intros Hv.
  destruct ((0 <? ir_optimal c) && (ir_optimal c <? ONE)) eqn:E1; cbn [bind] in Hv; [|discriminate].
  destruct (0 <? ir_plateau c) eqn:E2; cbn [bind] in Hv; [|discriminate].
  destruct (0 <? ir_max c) eqn:E3; cbn [bind] in Hv; [|discriminate].
  destruct (ir_plateau c <? ir_max c) eqn:E4; [lia | discriminate].
Qed.

Lemma legacy_eq c ur :
  validate_legacy c = Ok tt -> ir_max c <= I128_MAX / 2 -> 0 <= ur <= ONE -> legacy_curve c ur = Ok (legacy_val c ur).
Proof.
  intros Hv Hmx Hur. apply validate_legacy_inv in Hv as [Ho Hp].
  assert (I128_MAX / 2 <= I128_MAX) by (consts; apply Z.div_le_upper_bound; lia).
  unfold legacy_curve, legacy_val, lerp_val. destruct (ur <=? ir_optimal c) eqn:E5.
  - pose proof (div_frac_le ur (ir_optimal c) ONE ltac:(lia) ltac:(consts; lia) ltac:(lia)) as Hq.
    rewrite cdiv_ok by (consts; lia). cbn [bind].
    pose proof (mul_div_le (ir_plateau c) (ur * ONE / ir_optimal c) ONE ONE_pos ltac:(lia) Hq) as Hm.
    rewrite Z.mul_comm in Hm. rewrite cmul_ok by (consts; lia).
    rewrite !Z.sub_0_r, Z.add_0_l, (Z.mul_comm (ir_plateau c)). reflexivity.
  - rewrite usub_ok by (consts; lia). cbn [bind]. rewrite usub_ok by (consts; lia). cbn [bind].
    pose proof (div_frac_le (ur - ir_optimal c) (ONE - ir_optimal c) ONE ltac:(lia) ltac:(consts; lia) ltac:(lia)) as Hq.
    rewrite cdiv_ok by (consts; lia). cbn [bind]. rewrite usub_ok by (consts; lia). cbn [bind].
    pose proof (mul_div_le (ir_max c - ir_plateau c) _ ONE ONE_pos ltac:(lia) Hq) as Hm.
    rewrite Z.mul_comm in Hm.
    rewrite cmul_ok by (consts; lia). cbn [bind]. rewrite cadd_ok by (consts; lia).
    rewrite (Z.mul_comm (ir_max c - ir_plateau c)), Z.add_comm. reflexivity.
Qed.

Lemma legacy_ok c ur :
  validate_legacy c = Ok tt -> ir_max c <= I128_MAX / 2 -> 0 <= ur <= ONE ->
  exists r, legacy_curve c ur = Ok r /\ 0 <= r <= ir_max c /\
            (ur <= ir_optimal c -> r <= ir_plateau c) /\ (ir_optimal c < ur -> ir_plateau c <= r).
Proof.
  intros Hv Hmx Hur. exists (legacy_val c ur). split; [apply legacy_eq; assumption|].
  apply validate_legacy_inv in Hv as [Ho Hp]. unfold legacy_val. destruct (ur <=? ir_optimal c) eqn:E.
  - pose proof (lerp_val_bounds 0 0 (ir_optimal c) (ir_plateau c) ur). lia.
  - pose proof (lerp_val_bounds (ir_optimal c) (ir_plateau c) ONE (ir_max c) ur). lia.
Qed.

Lemma legacy_mono c u1 u2 r1 r2 :
  validate_legacy c = Ok tt -> ir_max c <= I128_MAX / 2 -> 0 <= u1 -> u1 <= u2 -> u2 <= ONE ->
  legacy_curve c u1 = Ok r1 -> legacy_curve c u2 = Ok r2 -> r1 <= r2.
Proof.
  intros Hv Hmx H0 H12 H2. rewrite !legacy_eq by (assumption || lia). intros E1 E2. apply Ok_inj in E1, E2. subst r1 r2.
  apply validate_legacy_inv in Hv as [Ho Hp]. unfold legacy_val.
  destruct (u1 <=? ir_optimal c) eqn:F1; destruct (u2 <=? ir_optimal c) eqn:F2; try lia.
  - apply lerp_val_mono; lia.
  - pose proof (lerp_val_bounds 0 0 (ir_optimal c) (ir_plateau c) u1).
    pose proof (lerp_val_bounds (ir_optimal c) (ir_plateau c) ONE (ir_max c) u2). lia.
  - apply lerp_val_mono; lia.
Qed.
