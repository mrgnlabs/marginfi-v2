(* SolvencyLemmas.v — C01: how every accounting primitive moves the bank's net obligations
   NAV = D - L + F*2^48  (deposits - liabilities at scale 2^96, fee buckets at scale 2^48);
   what the token transfers do to the bank entry; and the notions the handler-level theorems
   (SolvencyHandlers.v) are stated with: gap = vault*2^96 - NAV, hb_ok, accts_ok. *)
Require Import Base Constants Fixed Curve Bank BankOps Risk TransferFee Handlers.
Require Import FixedLemmas BankLemmas ValueLemmas AccrualLemmas TransferFeeLemmas HandlerLemmas.
From Coq Require Import ZifyBool.
Local Open Scope Z_scope.

Definition NAV (b : bank) : Z := Dv b - Lv b + Fv b * ONE.
Definition gapb (b : bank) (V : Z) : Z := V * ONE * ONE - NAV b.

(* increase (deposit / repay / liquidation credit): obligations grow by at most the amount *)
Lemma NAV_increase b bl now delta t b' bl' :
  wf_sv b -> wf_bal bl -> 0 <= delta ->
  increase_balance b bl now delta t = Ok (b', bl') ->
  NAV b' - NAV b <= delta * ONE /\ 0 <= NAV b' - NAV b /\ wf_bal bl'.
Proof.
  intros Hsv Hbl Hd H.
  pose proof (increase_value _ _ _ _ _ _ _ Hsv Hbl Hd H) as (V1 & V2 & V3).
  pose proof (increase_balance_inv _ _ _ _ _ _ _ Hsv Hbl Hd H) as F.
  destruct F as [Fa Fl Fta Ftl [Fs1 Fs2] (Fi & Fg & Fp) _ _ _ _].
  unfold NAV, Dv, Lv, Fv, pval in *. rewrite Fs1, Fs2 in *. rewrite Fi, Fg, Fp.
  rewrite Fta, Ftl. rewrite Fa, Fl in V1, V3. split; [|split; [|exact V2]]; nia.
Qed.

(* decrease (withdraw / borrow / liquidation debit): obligations shrink by at least the amount,
   up to one ulp of each share value *)
Lemma NAV_decrease b bl now delta t b' bl' :
  wf_sv b -> wf_bal bl -> 0 <= delta ->
  decrease_balance b bl now delta t = Ok (b', bl') ->
  delta * ONE - b_asv b - b_lsv b < NAV b - NAV b' /\ wf_bal bl'.
Proof.
  intros Hsv Hbl Hd H.
  pose proof (decrease_value _ _ _ _ _ _ _ Hsv Hbl Hd H) as (V1 & V2).
  pose proof (decrease_balance_inv _ _ _ _ _ _ _ Hsv Hbl Hd H) as F.
  destruct F as [Fa Fl Fta Ftl [Fs1 Fs2] (Fi & Fg & Fp) _ _ _ _].
  unfold NAV, Dv, Lv, Fv, pval in *. rewrite Fs1, Fs2 in *. rewrite Fi, Fg, Fp.
  rewrite Fta, Ftl. rewrite Fa, Fl in V1. split; [|exact V2]. nia.
Qed.

(* full withdrawal: obligations shrink by at least the whole tokens paid *)
Lemma NAV_withdraw_all b bl now b' bl' n :
  wf_sv b -> wf_bal bl -> withdraw_all b bl now = Ok (b', bl', n) ->
  n * ONE * ONE <= NAV b - NAV b' /\ 0 <= n.
Proof.
  intros Hsv Hbl H. pose proof (withdraw_all_inv _ _ _ _ _ _ Hsv Hbl H) as F.
  destruct F as [Fn Fd Fta Ftl [Fs1 Fs2] [Fg Fp] _ _ _ _ Fr].
  unfold NAV, Dv, Lv, Fv. rewrite Fs1, Fs2, Fta, Ftl, Fd, Fg, Fp.
  pose proof ONE_pos as HO. set (x := bl_a bl * b_asv b) in *.
  pose proof (Z.div_mod x ONE ltac:(lia)). pose proof (Z.mod_pos_bound x ONE HO).
  pose proof (Z.div_mod (x / ONE) ONE ltac:(lia)). pose proof (Z.mod_pos_bound (x / ONE) ONE HO).
  split; [|lia]. subst n. nia.
Qed.

(* full repayment: obligations grow by less than the whole tokens charged plus one ulp *)
Lemma NAV_repay_all b bl now b' bl' n :
  wf_sv b -> wf_bal bl -> repay_all b bl now = Ok (b', bl', n) ->
  NAV b' - NAV b < n * ONE * ONE + ONE /\ 0 <= n.
Proof.
  intros Hsv Hbl H. pose proof (repay_all_inv _ _ _ _ _ _ Hsv Hbl H) as F.
  destruct F as [Fn Fd Fta Ftl [Fs1 Fs2] [Fg Fp] _ _ _ Fr].
  unfold NAV, Dv, Lv, Fv. rewrite Fs1, Fs2, Fta, Ftl, Fd, Fg, Fp.
  pose proof ONE_pos as HO. set (x := bl_l bl * b_lsv b) in *.
  pose proof (Z.div_mod x ONE ltac:(lia)). pose proof (Z.mod_pos_bound x ONE HO).
  split; [|lia]. nia.
Qed.

Lemma NAV_close_balance b bl now b' bl' :
  wf_sv b -> wf_bal bl -> close_balance b bl now = Ok (b', bl') -> NAV b' = NAV b.
Proof.
  intros Hsv Hbl H. apply close_balance_inv in H; try assumption.
  destruct H as (_ & T1 & T2 & S1 & S2 & F1 & F2 & F3 & _).
  unfold NAV, Dv, Lv, Fv. rewrite T1, T2, S1, S2, F1, F2, F3. reflexivity.
Qed.

Lemma NAV_set_ins v b : NAV (set_b_ins v b) = NAV b + (v - b_ins b) * ONE.
Proof. unfold NAV, Dv, Lv, Fv. cbn [set_b_ins b_tas b_asv b_tls b_lsv b_ins b_grp b_prog]. lia. Qed.

(* loss socialisation only lowers the asset share value: to 0 when it kills the bank, else to a positive value that passes
   the whole loss on to the depositors *)
Lemma socialize_inv b loss b' kill : wf_sv b -> 0 <= b_tas b -> socialize_loss b loss = Ok (b', kill) ->
  exists nsv, b' = set_b_asv nsv b /\ 0 <= nsv /\
    (kill = false -> 0 < nsv /\ b_tas b * nsv <= (b_tas b * b_asv b / ONE - loss) * ONE).
Proof.
  intros [Ha Hl] Ht H. destruct (socialize_loss_raw _ _ _ _ Ha Ht H) as [(_ & -> & ->) | (nsv & E & Htp & -> & Hn & -> & ->)].
  - exists 0. split; [reflexivity|]. split; [lia|discriminate].
  - eexists. split; [reflexivity|]. split; [exact Hn|]. intros Hk. split; [lia|]. apply Z.mul_div_le. exact Htp.
Qed.

Lemma NAV_cache b pf now b' : update_bank_cache b pf now = Ok b' ->
  NAV b' = NAV b /\ b_asv b' = b_asv b /\ b_lsv b' = b_lsv b /\ b_tas b' = b_tas b /\ b_tls b' = b_tls b /\ b_op_state b' = b_op_state b.
Proof. intros H. apply update_bank_cache_core in H as [-> | ->]; cbn; repeat split; reflexivity. Qed.

(* accrual: obligations grow by at most the proved allowance (valid seven-point curve) *)
Definition accrual_slack (b b' : bank) : Z :=
  b_tls b * b_lsv b / ONE + b_tls b + (b_asv b' * ONE / Z.max 1 (b_asv b) + 2) + 1.

Lemma NAV_accrue b pf now b' :
  wf_bank b -> 0 < b_asv b -> valid_curve b -> accrue_interest b pf now = Ok b' ->
  NAV b' - NAV b <= accrual_slack b b' /\ wf_bank b' /\ 0 < b_asv b' /\ valid_curve b' /\ b_op_state b' = b_op_state b.
Proof.
  intros Hw Hpos Hv H. pose proof Hw as (Ha & Hl & Hta & Htl).
  pose proof (accrue_monotone b pf now b' Ha Hl Hta Htl H) as (M1 & M2 & _ & _ & _ & _ & M7 & M8 & _).
  pose proof (accrue_credit_le_charge b pf now b' Hw Hv H) as (irl & Hirl0 & Hcase & C).
  pose proof (accrue_frame _ _ _ _ H) as F. pose proof (cs_ir _ _ F) as Fir. pose proof (cs_op_state _ _ F) as Fop.
  assert (Hs : NAV b' - NAV b <= accrual_slack b b').
  { unfold accrual_slack.
    pose proof ONE_pos as HO.
      assert (0 <= b_asv b' * ONE / Z.max 1 (b_asv b)) by (apply Z.div_pos; nia).
      assert (irl <= b_asv b' * ONE / Z.max 1 (b_asv b) + 2).
      { destruct Hcase as [[_ ->] | [Hc | [_ ->]]]; [lia | | lia].
        destruct (Z.eq_dec (b_asv b) 0) as [Z0|NZ]; [lia|].
        { assert (0 < b_asv b) by lia. replace (Z.max 1 (b_asv b)) with (b_asv b) by lia.
          rewrite Hc.
          pose proof (Z.div_mod (b_asv b * (ONE + irl)) ONE ltac:(lia)). pose proof (Z.mod_pos_bound (b_asv b * (ONE + irl)) ONE HO).
          set (q := b_asv b * (ONE + irl) / ONE) in *.
          assert (b_asv b * irl <= q * ONE) by nia.
          pose proof (Z.div_le_lower_bound (q * ONE) (b_asv b) irl ltac:(lia) ltac:(lia)). lia. } }
      unfold NAV. lia. }
  split; [exact Hs|]. split; [unfold wf_bank; lia|]. split; [lia|]. split; [|exact Fop].
  destruct Hv as (V1 & V2 & V3). unfold valid_curve. rewrite Fir. auto.
Qed.

Lemma xfer_in_effect w a b n w' hb :
  xfer_in w a b n = Ok w' -> nth_bank w b = Ok hb ->
  exists f, tfee hb n = Ok f /\
    nth_bank w' b = Ok (set_hb_vault (hb_vault hb + n - f) hb) /\
    (forall k, b <> k -> nth_bank w' k = nth_bank w k) /\ (forall k, nth_acct w' k = nth_acct w k).
Proof.
  intros H Hb. destruct (xfer_in_inv _ _ _ _ _ _ H Hb) as (f & u & Hf & ->).
  exists f. split; [exact Hf|]. split; [eapply nth_res_set_same; exact Hb|].
  split; [intros k Hk; apply nth_res_set_other; exact Hk|reflexivity].
Qed.
Lemma xfer_out_effect w a b n w' hb :
  xfer_out w a b n = Ok w' -> nth_bank w b = Ok hb ->
  nth_bank w' b = Ok (set_hb_vault (hb_vault hb - n) hb) /\ n <= hb_vault hb /\
  (forall k, b <> k -> nth_bank w' k = nth_bank w k) /\ (forall k, nth_acct w' k = nth_acct w k).
Proof.
  intros H Hb. destruct (xfer_out_inv _ _ _ _ _ _ H Hb) as (Hle & u & ->).
  split; [eapply nth_res_set_same; exact Hb|]. split; [exact Hle|].
  split; [intros k Hk; apply nth_res_set_other; exact Hk|reflexivity].
Qed.

Lemma pre_fee_nonneg hb post pre : 0 <= hb_tf_bps hb <= 10000 -> 0 <= hb_tf_max hb -> 0 <= post -> pre_fee hb post = Ok pre -> 0 <= pre.
Proof.
  intros Hb Hm Hp. unfold pre_fee. destruct (hb_t22 hb).
  - intros H1. apply prefee_wrapper in H1. unfold calculate_pre_fee_amount in H1.
    destruct (hb_tf_bps hb =? 0); [apply Ok_inj in H1; lia|].
    destruct (post =? 0); [apply Ok_inj in H1; lia|].
    destruct (hb_tf_bps hb =? BPS_ONE); [apply chko_inv in H1 as [-> _]; lia|].
    apply bind_ok in H1 as (x1 & _ & H1). apply bind_ok in H1 as (x2 & _ & H1).
    apply bind_ok in H1 as (x3 & _ & H1). apply bind_ok in H1 as (x4 & _ & H1).
    destruct (hb_tf_max hb <=? x4); apply chko_inv in H1 as [H1 H1r]; unfold in_u64, in_range in H1r; lia.
  - intros H1. apply Ok_inj in H1. lia.
Qed.

(* the pre-fee amount pulled from a depositor leaves at least the booked amount in the vault *)
Lemma pre_fee_covers hb post pre f :
  0 <= hb_tf_bps hb <= 10000 -> 0 <= hb_tf_max hb -> 0 <= post ->
  pre_fee hb post = Ok pre -> tfee hb pre = Ok f -> post <= pre - f /\ 0 <= f.
Proof.
  intros Hb Hm Hp H1 H2. pose proof (pre_fee_nonneg _ _ _ Hb Hm Hp H1) as Hpre.
  unfold pre_fee, tfee in *. destruct (hb_t22 hb).
  - apply prefee_wrapper in H1.
    destruct (calculate_fee (hb_tf_bps hb) (hb_tf_max hb) pre) as [fee|e] eqn:E; [|discriminate].
    apply Ok_inj in H2. subst f.
    apply (prefee_covers (hb_tf_bps hb) (hb_tf_max hb) post pre fee); try assumption; unfold BPS_ONE; lia.
  - apply Ok_inj in H1. apply Ok_inj in H2. lia.
Qed.

Definition gap (hb : hbank) : Z := gapb (hb_b hb) (hb_vault hb).

Definition hb_ok (hb : hbank) : Prop :=
  wf_bank (hb_b hb) /\ 0 < b_asv (hb_b hb) /\ 0 < b_lsv (hb_b hb) /\ valid_curve (hb_b hb) /\
  0 <= hb_tf_bps hb <= 10000 /\ 0 <= hb_tf_max hb.

Definition accts_ok (w : hworld) : Prop := Forall (fun ac => Forall wf_bal (ha_la ac)) (hw_accts w).

Lemma hb_ok_sv hb : hb_ok hb -> wf_sv (hb_b hb).
Proof. intros (_ & ? & ? & _). unfold wf_sv. lia. Qed.

Lemma find_or_create_wf k bk la now i la1 :
  wrapper_find_or_create k bk la now = Ok (i, la1) -> Forall wf_bal la -> Forall wf_bal la1.
Proof.
  unfold wrapper_find_or_create. intros H Hf. destruct (find_active k la).
  - apply pair_ok in H as [_ <-]. exact Hf.
  - bind_inv H as u _. destruct (find_idx _ la 0); [|discriminate].
    apply pair_ok in H as [_ <-]. apply Forall_set_nth; [exact Hf|]. unfold wf_bal; cbn; lia.
Qed.

Lemma accts_ok_put w a ac : accts_ok w -> Forall wf_bal (ha_la ac) -> accts_ok (put_hacct w a ac).
Proof. unfold accts_ok, put_hacct. cbn [hw_accts]. intros. apply Forall_set_nth; assumption. Qed.

Lemma accts_ok_same_accts w w' : hw_accts w' = hw_accts w -> accts_ok w -> accts_ok w'.
Proof. unfold accts_ok. intros ->; auto. Qed.

Lemma accts_ok_nth w a ac : accts_ok w -> nth_acct w a = Ok ac -> Forall wf_bal (ha_la ac).
Proof. unfold accts_ok, nth_acct. intros H E. eapply (nth_res_Forall (fun ac => Forall wf_bal (ha_la ac))); eauto. Qed.
