(* GateLemmas.v — C14: operational-state gate, handler kinds (generated facts), protocol pause and its expiry,
   reduce-only valuation rule. *)
Require Import Base Constants Panic AnchorTypes AnchorSem Gate AccountsTable Spec AnchorSemLemmas.
From Coq Require Import ZifyBool.
Local Open Scope string_scope.
Local Open Scope Z_scope.

(* the kind deposit / borrow pass: only an Operational bank is let through *)
Lemma deposit_kind_ok st : is_ok (validate_bank_state st FailsIfPausedOrReduceState) = true <-> st = Operational.
Proof. destruct st; cbn; split; intros H; try reflexivity; try discriminate. Qed.

(* the kind withdraw / repay / liquidate / bankruptcy pass: Operational or ReduceOnly *)
Lemma withdraw_kind_ok st :
  is_ok (validate_bank_state st FailsInPausedState) = true <-> st = Operational \/ st = ReduceOnly.
Proof. destruct st; cbn; split; intros H; auto; try discriminate; destruct H; discriminate. Qed.

Lemma killed_refuses_all k : validate_bank_state KilledByBankruptcy k = Err (E E_BankKilledByBankruptcy).
Proof. destruct k; reflexivity. Qed.

Lemma paused_refuses_gated k :
  k = FailsInPausedState \/ k = FailsIfPausedOrReduceState -> validate_bank_state Paused k = Err (E E_BankPaused).
Proof. intros [->| ->]; reflexivity. Qed.

Lemma bank_gate_ok l : is_ok (bank_gate l) = true <-> forall c, In c l -> is_ok (validate_bank_state (fst c) (snd c)) = true.
Proof.
  induction l as [|[st k] l IH]; cbn [bank_gate].
  - split; [intros _ c []|reflexivity].
  - destruct (validate_bank_state st k) as [[]|er] eqn:E; cbn [bind].
    + rewrite IH. split.
      * intros H c [<-|Hc]; [cbn; rewrite E; reflexivity|auto].
      * intros H c Hc. apply H. right. exact Hc.
    + split; [discriminate|]. intros H. specialize (H (st, k) (or_introl eq_refl)). cbn in H. rewrite E in H. exact H.
Qed.

(* handler kinds, from the generated facts: one evaluation of check_handler_kinds.  Only its two families are
   used below; its other two conjuncts (no other handler calls validate_bank_state; the enum has exactly the
   variants of Gate.ikind) tie Gate.v and the families of Spec.v to the source. *)
Lemma handler_kinds_checked : check_handler_kinds = true.
Proof. vm_compute. reflexivity. Qed.

Lemma family_kinds :
  forallb (check_handler_kind FailsIfPausedOrReduceState) DepositBorrowFamily = true /\
  forallb (check_handler_kind FailsInPausedState) WithdrawRepayLiqFamily = true.
Proof.
  apply Bool.andb_true_iff. destruct (_ && _) eqn:E; [reflexivity|].
  (* otherwise check_handler_kinds would be false.  It is unfolded in the goal and not in handler_kinds_checked:
     in that direction the kernel compares the two forms without evaluating the sweeps a second time *)
  enough (N : check_handler_kinds = false) by (rewrite handler_kinds_checked in N; discriminate N).
  unfold check_handler_kinds. rewrite E. reflexivity.
Qed.

Lemma deposit_family_kind ix : In ix DepositBorrowFamily -> check_handler_kind FailsIfPausedOrReduceState ix = true.
Proof. apply forallb_forall. exact (proj1 family_kinds). Qed.

Lemma withdraw_family_kind ix : In ix WithdrawRepayLiqFamily -> check_handler_kind FailsInPausedState ix = true.
Proof. apply forallb_forall. exact (proj2 family_kinds). Qed.

Lemma family_has_entry k ix : check_handler_kind k ix = true -> exists e, find_entry ix accounts_table = Some e.
Proof. unfold check_handler_kind. destruct (find_entry ix accounts_table) as [e|]; [eauto|discriminate]. Qed.

Lemma handler_kind_calls k ix c : check_handler_kind k ix = true -> In c (calls_of ix) -> snd (fst c) = k.
Proof.
  unfold check_handler_kind. destruct (find_entry ix accounts_table) as [e|]; [|discriminate]. intros K Hc.
  apply Bool.andb_true_iff in K as [K _]. apply Bool.andb_true_iff in K as [_ K].
  pose proof (proj1 (forallb_forall _ _) K c Hc) as Kc. cbv beta in Kc.
  apply Bool.andb_true_iff in Kc as [Kc _]. apply Bool.andb_true_iff in Kc as [Kc _].
  destruct (snd (fst c)), k; (reflexivity || discriminate).
Qed.

Lemma handler_kind_banks k ix e f :
  check_handler_kind k ix = true -> find_entry ix accounts_table = Some e ->
  In f (e_fields e) -> wrap_is_loader "Bank" f = true -> exists c, In c (calls_of ix) /\ fst (fst c) = f_name f.
Proof.
  unfold check_handler_kind. intros K He Hf Hw. rewrite He in K. apply Bool.andb_true_iff in K as [_ K].
  pose proof (proj1 (forallb_forall _ _) K f Hf) as F. cbv beta in F. rewrite Hw in F.
  apply existsb_exists in F as [c [Hc Hn]]. apply seqb_eq in Hn. eauto.
Qed.

Lemma handler_kind_sound k ix e f w b :
  check_handler_kind k ix = true -> find_entry ix accounts_table = Some e ->
  In f (e_fields e) -> wrap_is_loader "Bank" f = true ->
  is_ok (handler_bank_gate ix w b) = true ->
  is_ok (validate_bank_state (bank_state_of w b (f_name f)) k) = true.
Proof.
  intros K He Hf Hw Hg. destruct (handler_kind_banks k ix e f K He Hf Hw) as [c [Hc <-]].
  rewrite <- (handler_kind_calls k ix c K Hc).
  exact (proj1 (bank_gate_ok _) Hg _ (in_map (fun c => (bank_state_of w b (fst (fst c)), snd (fst c))) _ c Hc)).
Qed.

Lemma handler_kind_open k ix w b :
  check_handler_kind k ix = true ->
  (forall c, In c (calls_of ix) -> is_ok (validate_bank_state (bank_state_of w b (fst (fst c))) k) = true) ->
  handler_bank_gate ix w b = Ok tt.
Proof.
  intros K H. assert (G : is_ok (handler_bank_gate ix w b) = true).
  { apply bank_gate_ok. intros c' Hc. apply in_map_iff in Hc as [c [<- Hc]]. cbn [fst snd].
    rewrite (handler_kind_calls k ix c K Hc). exact (H c Hc). }
  destruct (handler_bank_gate ix w b) as [[]|]; [reflexivity|discriminate].
Qed.

Lemma financial_checked e : In e accounts_table -> check_financial_entry e = true.
Proof. revert e. apply forallb_forall. vm_compute. reflexivity. Qed.

Lemma is_protocol_paused_spec c now :
  - 2^62 <= c_start c <= 2^62 -> 0 <= now < 2^62 ->
  is_protocol_paused c now = Ok (flag_set (c_flags c) && negb (c_start c + 1800 <=? now)).
Proof.
  intros Hs Hn. unfold is_protocol_paused, c_is_expired, is_expired_raw.
  destruct (flag_set (c_flags c)); cbn [negb andb]; [|reflexivity].
  destruct (Z.ltb_spec now (c_start c)).
  - cbn [bind negb]. f_equal. symmetry. apply Bool.negb_true_iff. lia.
  - unfold chk, in_i64, in_range, I64_MIN, I64_MAX.
    replace ((- 2 ^ 63 <=? now - c_start c) && (now - c_start c <=? 2 ^ 63 - 1)) with true by lia.
    cbn [bind]. unfold PAUSE_DURATION_SECONDS. f_equal. f_equal. lia.
Qed.

Lemma pause_in_force c now :
  - 2^62 <= c_start c <= 2^62 -> 0 <= now < 2^62 -> flag_set (c_flags c) = true -> now - c_start c < 1800 ->
  is_protocol_paused c now = Ok true.
Proof.
  intros Hs Hn Hf Hd. rewrite (is_protocol_paused_spec c now Hs Hn), Hf.
  replace (c_start c + 1800 <=? now) with false by lia. reflexivity.
Qed.

(* reduce-only deposits: worth nothing for new borrowing, unchanged for liquidation purposes *)
Lemma reduce_only_initial_zero rest : weighted_asset_value_rule Collateral ReduceOnly Initial rest = Ok 0.
Proof. reflexivity. Qed.

Lemma reduce_only_maintenance_full rest :
  weighted_asset_value_rule Collateral ReduceOnly Maintenance rest = rest /\
  weighted_asset_value_rule Collateral ReduceOnly Maintenance rest =
  weighted_asset_value_rule Collateral Operational Maintenance rest.
Proof. split; reflexivity. Qed.
