(* ErrLemmas.v — error provenance: which program error codes a computation of the model can end with.
     raises S r : every error r can end with is an abort, a None, or a code that S accepts
     simple r   : r never ends with a program error code (only abort / None)
     ng r       : r never ends with Err (E E_RiskEngineInitRejected); used by the converse half of C04
                  ("a borrow / withdrawal is rejected with RiskEngineInitRejected only by the health
                  comparison of the risk engine").
   For every function of the bank / wrapper layer `raises (among l)` is proved once, with l the codes the
   function can return; that a particular code is never returned is read off the list. *)
Require Import Base Constants Fixed Curve Bank BankOps Risk TransferFee Handlers.
From Coq Require Import ZifyBool.
Local Open Scope Z_scope.

Lemma bind_err_inv {A B} (r : res A) (f : A -> res B) e :
  bind r f = Err e -> r = Err e \/ exists a, r = Ok a /\ f a = Err e.
Proof. destruct r as [a|e']; cbn; intros H; [right; eauto | left; congruence]. Qed.

Definition allows (S : Z -> bool) (e : err) : Prop := match e with E c => S c = true | _ => True end.
Definition raises {A} (S : Z -> bool) (r : res A) : Prop := forall e, r = Err e -> allows S e.

Definition among (l : list Z) (c : Z) : bool := existsb (Z.eqb c) l.
Definition other_than (c0 c : Z) : bool := negb (c =? c0).

Definition simple {A} (r : res A) : Prop := forall c, r <> Err (E c).
Definition ng {A} (r : res A) : Prop := r <> Err (E E_RiskEngineInitRejected).

Lemma raises_ok {A} S (a : A) : raises S (Ok a).
Proof. intros e H. discriminate. Qed.
Lemma raises_err {A} S e : allows S e -> raises S (@Err A e).
Proof. intros He e' H. injection H as <-. exact He. Qed.
Lemma raises_bind {A B} S (r : res A) (f : A -> res B) :
  raises S r -> (forall a, r = Ok a -> raises S (f a)) -> raises S (bind r f).
Proof. intros Hr Hf e H. apply bind_err_inv in H as [H | (a & Ha & H)]; [exact (Hr e H) | exact (Hf a Ha e H)]. Qed.
Lemma raises_ok_or {A} S (r : res A) e : raises S r -> allows S e -> raises S (ok_or r e).
Proof.
  intros Hr He e' H. destruct r as [a|[| |c]]; try exact (Hr e' H).
  injection H as <-. exact He.
Qed.
Lemma raises_check S b e : allows S e -> raises S (check b e).
Proof. destruct b; [intros _; apply raises_ok | apply raises_err]. Qed.

Lemma raises_sub {A} l S (r : res A) : raises (among l) r -> forallb S l = true -> raises S r.
Proof.
  intros Hr Hl [| |c] H; try exact I. apply Hr, existsb_exists in H as (x & Hin & Hx).
  rewrite forallb_forall in Hl. replace c with x by lia. exact (Hl x Hin).
Qed.
Lemma among_never {A} l c (r : res A) : raises (among l) r -> among l c = false -> r <> Err (E c).
Proof. intros Hr Hc H. apply Hr in H. cbn in H. congruence. Qed.
Lemma other_than_never {A} c (r : res A) : raises (other_than c) r <-> r <> Err (E c).
Proof.
  unfold other_than. split.
  - intros Hr H. apply Hr in H. cbn in H. lia.
  - intros Hr [| |c'] H; try exact I. cbn. destruct (Z.eqb_spec c' c); [congruence | reflexivity].
Qed.
Lemma simple_iff {A} (r : res A) : simple r <-> raises (among []) r.
Proof.
  split.
  - intros Hr [| |c] H; [exact I | exact I | destruct (Hr c H)].
  - intros Hr c. apply (among_never [] c r Hr eq_refl).
Qed.
Lemma raises_simple {A} S (r : res A) : simple r -> raises S r.
Proof. intros H. apply (raises_sub []); [apply simple_iff, H | reflexivity]. Qed.
Lemma ng_raises {A} (r : res A) : ng r <-> raises (other_than E_RiskEngineInitRejected) r.
Proof. symmetry. apply other_than_never. Qed.

Lemma ng_bind_ok {A B} (r : res A) (f : A -> res B) :
  ng r -> (forall a, r = Ok a -> ng (f a)) -> ng (bind r f).
Proof.
  intros Hr Hf. apply ng_raises, raises_bind; [apply ng_raises, Hr | intros a Ha; apply ng_raises, Hf, Ha].
Qed.
Lemma ng_panic {A} : ng (@Err A EPanic).
Proof. intros H; discriminate. Qed.

(* `raises S r` by inspection of r: one step per constructor of the computation. A call of a function
   that has a lemma of its own is closed from the hint bases (simple_db: functions without codes,
   raises_db: `raises (among l)`, and whatever is known of an oracle component from the hypotheses).
   All dispatch is syntactic (lazymatch on the head of the computation): `apply` must never be allowed
   to unify `bind _ _` with some other definition by unfolding. *)
Ltac allowed := first [assumption | cbv; first [exact I | reflexivity]].
Create HintDb simple_db.
Create HintDb raises_db.
#[export] Hint Resolve raises_simple : raises_db.
#[export] Hint Resolve -> ng_raises : raises_db.
Ltac raises_step :=
  lazymatch goal with
  | |- raises _ (Ok _) => apply raises_ok
  | |- raises _ (Err _) => apply raises_err; allowed
  | |- raises _ (bind _ _) => apply raises_bind; [ | intros ? _ ]
  | |- raises _ (math _) => apply raises_ok_or; [ | allowed ]
  | |- raises _ (ok_or _ _) => apply raises_ok_or; [ | allowed ]
  | |- raises _ (check _ _) => apply raises_check; allowed
  | |- raises _ (if ?c then _ else _) => destruct c
  | |- raises _ (match ?x with _ => _ end) => destruct x
  | |- raises _ _ =>
      first [ solve [auto with simple_db raises_db]
            | solve [eapply raises_sub; [auto with raises_db | reflexivity]] ]
  end.
Ltac raises_auto := repeat raises_step.
Ltac simple_auto := apply simple_iff; raises_auto.

Lemma simple_chko inr z : simple (chko inr z).
Proof. unfold chko. simple_auto. Qed.
Lemma simple_chk inr z : simple (chk inr z).
Proof. unfold chk. simple_auto. Qed.
Lemma simple_assert b : simple (assert b).
Proof. unfold assert. simple_auto. Qed.
Lemma simple_nth_res {A} n (l : list A) : simple (nth_res n l).
Proof. unfold nth_res. simple_auto. Qed.
Lemma simple_nth_bank w b : simple (nth_bank w b).
Proof. apply simple_nth_res. Qed.
Lemma simple_nth_acct w a : simple (nth_acct w a).
Proof. apply simple_nth_res. Qed.
#[export] Hint Resolve simple_chko simple_chk simple_assert simple_nth_res simple_nth_bank simple_nth_acct : simple_db.

Lemma simple_cadd a b : simple (cadd a b). Proof. apply simple_chko. Qed.
Lemma simple_csub a b : simple (csub a b). Proof. apply simple_chko. Qed.
Lemma simple_cmul a b : simple (cmul a b). Proof. apply simple_chko. Qed.
Lemma simple_cdiv a b : simple (cdiv a b). Proof. unfold cdiv. simple_auto. Qed.
Lemma simple_uadd a b : simple (uadd a b). Proof. apply simple_chk. Qed.
Lemma simple_usub a b : simple (usub a b). Proof. apply simple_chk. Qed.
Lemma simple_uneg a : simple (uneg a). Proof. apply simple_chk. Qed.
Lemma simple_wdiv a b : simple (wdiv a b). Proof. unfold wdiv. simple_auto. Qed.
Lemma simple_cfloor a : simple (cfloor a). Proof. apply simple_chko. Qed.
Lemma simple_cceil a : simple (cceil a). Proof. apply simple_chko. Qed.
Lemma simple_to_u64 a : simple (to_u64_checked a). Proof. apply simple_chko. Qed.
Lemma simple_exp10 i : simple (exp10_fx i). Proof. unfold exp10_fx. simple_auto. Qed.
#[export] Hint Resolve simple_cadd simple_csub simple_cmul simple_cdiv simple_uadd simple_usub simple_uneg
  simple_wdiv simple_cfloor simple_cceil simple_to_u64 simple_exp10 : simple_db.

Lemma simple_lerp sx sy ex ey tx : simple (lerp sx sy ex ey tx).
Proof. unfold lerp. simple_auto. Qed.
Lemma simple_rate_from_u32 r : simple (rate_from_u32 r).
Proof. unfold rate_from_u32. simple_auto. Qed.
Lemma simple_util_from_u32 r : simple (util_from_u32 r).
Proof. unfold util_from_u32. simple_auto. Qed.
#[export] Hint Resolve simple_lerp simple_rate_from_u32 simple_util_from_u32 : simple_db.
Lemma simple_mpc_loop pts : forall pu pr ur hr, simple (mpc_loop pts pu pr ur hr).
Proof. induction pts as [|p rest IH]; intros; cbn [mpc_loop]; simple_auto. Qed.
#[export] Hint Resolve simple_mpc_loop : simple_db.
Lemma simple_mpc c ur : simple (mpc c ur).
Proof. unfold mpc. simple_auto. Qed.
Lemma simple_legacy c ur : simple (legacy_curve c ur).
Proof. unfold legacy_curve. simple_auto. Qed.
Lemma simple_calc_fee_rate a b c : simple (calc_fee_rate a b c).
Proof. unfold calc_fee_rate. simple_auto. Qed.
#[export] Hint Resolve simple_mpc simple_legacy simple_calc_fee_rate : simple_db.
Lemma simple_calc_interest_rate c pf ur : simple (calc_interest_rate c pf ur).
Proof. unfold calc_interest_rate. simple_auto. Qed.
#[export] Hint Resolve simple_calc_interest_rate : simple_db.

Lemma simple_accrued a b c : simple (accrued_per_period a b c).
Proof. unfold accrued_per_period. simple_auto. Qed.
Lemma simple_payment a b c : simple (payment_for_period a b c).
Proof. unfold payment_for_period. simple_auto. Qed.
#[export] Hint Resolve simple_accrued simple_payment : simple_db.
Lemma simple_accrual_state_changes dt a l c pf asv lsv : simple (accrual_state_changes dt a l c pf asv lsv).
Proof. unfold accrual_state_changes. simple_auto. Qed.
#[export] Hint Resolve simple_accrual_state_changes : simple_db.

Lemma simple_ceil_div n d : simple (ceil_div n d).
Proof. unfold ceil_div. simple_auto. Qed.
#[export] Hint Resolve simple_ceil_div : simple_db.
Lemma simple_calculate_fee a b c : simple (calculate_fee a b c).
Proof. unfold calculate_fee. simple_auto. Qed.
Lemma simple_tfee hb n : simple (tfee hb n).
Proof. unfold tfee. simple_auto. Qed.
Lemma simple_pre_fee hb n : simple (pre_fee hb n).
Proof. unfold pre_fee, pre_fee_deposit_amount. simple_auto. Qed.
#[export] Hint Resolve simple_calculate_fee simple_tfee simple_pre_fee : simple_db.

Lemma raises_get_asset_amount b s : raises (among [E_MathError]) (get_asset_amount b s).
Proof. unfold get_asset_amount. raises_auto. Qed.
Lemma raises_get_liability_amount b s : raises (among [E_MathError]) (get_liability_amount b s).
Proof. unfold get_liability_amount. raises_auto. Qed.
Lemma raises_get_liability_shares b s : raises (among [E_MathError]) (get_liability_shares b s).
Proof. unfold get_liability_shares. raises_auto. Qed.
Lemma raises_get_asset_shares b s : raises (among [E_MathError]) (get_asset_shares b s).
Proof. unfold get_asset_shares. raises_auto. Qed.
#[export] Hint Resolve raises_get_asset_amount raises_get_liability_amount raises_get_liability_shares
  raises_get_asset_shares : raises_db.

Lemma raises_bank_scale l d : raises (among [E_DriftMocks_MathError]) (bank_scale_drift_deposit_limit l d).
Proof. unfold bank_scale_drift_deposit_limit. raises_auto. Qed.
#[export] Hint Resolve raises_bank_scale : raises_db.
Lemma raises_deposit_limit_fx b : raises (among [E_DriftMocks_MathError]) (deposit_limit_fx b).
Proof. unfold deposit_limit_fx. raises_auto. Qed.
#[export] Hint Resolve raises_deposit_limit_fx : raises_db.
Lemma raises_change_asset_shares b s y :
  raises (among [E_MathError; E_DriftMocks_MathError; E_BankAssetCapacityExceeded]) (change_asset_shares b s y).
Proof. unfold change_asset_shares. raises_auto. Qed.
Lemma raises_change_liability_shares b s y :
  raises (among [E_MathError; E_BankLiabilityCapacityExceeded]) (change_liability_shares b s y).
Proof. unfold change_liability_shares. raises_auto. Qed.
Lemma raises_check_utilization b : raises (among [E_MathError; E_IllegalUtilizationRatio]) (check_utilization_ratio b).
Proof. unfold check_utilization_ratio. raises_auto. Qed.
#[export] Hint Resolve raises_change_asset_shares raises_change_liability_shares raises_check_utilization : raises_db.

Lemma raises_accrue b pf now : raises (among [E_MathError]) (accrue_interest b pf now).
Proof. unfold accrue_interest. raises_auto. Qed.
Lemma raises_update_bank_cache b pf now : raises (among [E_MathError]) (update_bank_cache b pf now).
Proof. unfold update_bank_cache. raises_auto. Qed.
#[export] Hint Resolve raises_accrue raises_update_bank_cache : raises_db.

Lemma simple_get_side bl : simple (get_side bl).
Proof. unfold get_side. simple_auto. Qed.
#[export] Hint Resolve simple_get_side : simple_db.
Lemma raises_calc_emissions a b c d : raises (among [E_MathError]) (calc_emissions a b c d).
Proof. unfold calc_emissions. raises_auto. Qed.
#[export] Hint Resolve raises_calc_emissions : raises_db.
Lemma raises_claim_emissions b bl now : raises (among [E_MathError]) (claim_emissions b bl now).
Proof. unfold claim_emissions. raises_auto. Qed.
#[export] Hint Resolve raises_claim_emissions : raises_db.
Lemma raises_increase_balance b bl now d t :
  raises (among [E_MathError; E_OperationRepayOnly; E_OperationDepositOnly; E_DriftMocks_MathError;
                 E_BankAssetCapacityExceeded; E_BankLiabilityCapacityExceeded]) (increase_balance b bl now d t).
Proof. unfold increase_balance. raises_auto. Qed.
Lemma raises_decrease_balance b bl now d t :
  raises (among [E_MathError; E_OperationWithdrawOnly; E_OperationBorrowOnly; E_DriftMocks_MathError;
                 E_BankAssetCapacityExceeded; E_BankLiabilityCapacityExceeded; E_IllegalUtilizationRatio])
         (decrease_balance b bl now d t).
Proof. unfold decrease_balance. raises_auto. Qed.
Lemma raises_balance_close bl : raises (among [E_CannotCloseOutstandingEmissions]) (balance_close bl).
Proof. unfold balance_close. raises_auto. Qed.
#[export] Hint Resolve raises_increase_balance raises_decrease_balance raises_balance_close : raises_db.
Lemma raises_withdraw_all b bl now :
  raises (among [E_MathError; E_NoAssetFound; E_CannotCloseOutstandingEmissions; E_DriftMocks_MathError;
                 E_BankAssetCapacityExceeded; E_IllegalUtilizationRatio]) (withdraw_all b bl now).
Proof. unfold withdraw_all. raises_auto. Qed.
Lemma raises_wrapper_find k la : raises (among [E_BankAccountNotFound]) (wrapper_find k la).
Proof. unfold wrapper_find. raises_auto. Qed.
Lemma raises_wrapper_find_or_create k b la now :
  raises (among [E_IntegrationPositionLimitExceeded; E_LendingAccountBalanceSlotsFull]) (wrapper_find_or_create k b la now).
Proof. unfold wrapper_find_or_create. raises_auto. Qed.
#[export] Hint Resolve raises_withdraw_all raises_wrapper_find raises_wrapper_find_or_create : raises_db.

Lemma raises_validate_bank_state b k :
  raises (among [E_BankKilledByBankruptcy; E_BankReduceOnly; E_BankPaused]) (validate_bank_state b k).
Proof. unfold validate_bank_state. raises_auto. Qed.
Lemma raises_validate_asset_tags b la : raises (among [E_AssetTagMismatch]) (validate_asset_tags b la).
Proof. unfold validate_asset_tags. raises_auto. Qed.
Lemma simple_utok w a b : simple (utok w a b).
Proof. unfold utok. simple_auto. Qed.
#[export] Hint Resolve raises_validate_bank_state raises_validate_asset_tags : raises_db.
#[export] Hint Resolve simple_utok : simple_db.
Lemma raises_xfer_out w a b n : raises (among [1]) (xfer_out w a b n).
Proof. unfold xfer_out. raises_auto. Qed.
#[export] Hint Resolve raises_xfer_out : raises_db.

Lemma among_ng {A} l (r : res A) : raises (among l) r -> among l E_RiskEngineInitRejected = false -> ng r.
Proof. apply among_never. Qed.

Lemma ng_get_asset_amount b s : ng (get_asset_amount b s).
Proof. exact (among_ng _ _ (raises_get_asset_amount b s) eq_refl). Qed.
Lemma ng_get_liability_amount b s : ng (get_liability_amount b s).
Proof. exact (among_ng _ _ (raises_get_liability_amount b s) eq_refl). Qed.
Lemma ng_get_liability_shares b s : ng (get_liability_shares b s).
Proof. exact (among_ng _ _ (raises_get_liability_shares b s) eq_refl). Qed.
Lemma ng_get_asset_shares b s : ng (get_asset_shares b s).
Proof. exact (among_ng _ _ (raises_get_asset_shares b s) eq_refl). Qed.
Lemma ng_bank_scale l d : ng (bank_scale_drift_deposit_limit l d).
Proof. exact (among_ng _ _ (raises_bank_scale l d) eq_refl). Qed.
Lemma ng_deposit_limit_fx b : ng (deposit_limit_fx b).
Proof. exact (among_ng _ _ (raises_deposit_limit_fx b) eq_refl). Qed.
Lemma ng_change_asset_shares b s y : ng (change_asset_shares b s y).
Proof. exact (among_ng _ _ (raises_change_asset_shares b s y) eq_refl). Qed.
Lemma ng_change_liability_shares b s y : ng (change_liability_shares b s y).
Proof. exact (among_ng _ _ (raises_change_liability_shares b s y) eq_refl). Qed.
Lemma ng_check_utilization b : ng (check_utilization_ratio b).
Proof. exact (among_ng _ _ (raises_check_utilization b) eq_refl). Qed.
Lemma ng_accrue b pf now : ng (accrue_interest b pf now).
Proof. exact (among_ng _ _ (raises_accrue b pf now) eq_refl). Qed.
Lemma ng_update_bank_cache b pf now : ng (update_bank_cache b pf now).
Proof. exact (among_ng _ _ (raises_update_bank_cache b pf now) eq_refl). Qed.
Lemma ng_calc_emissions a b c d : ng (calc_emissions a b c d).
Proof. exact (among_ng _ _ (raises_calc_emissions a b c d) eq_refl). Qed.
Lemma ng_claim_emissions b bl now : ng (claim_emissions b bl now).
Proof. exact (among_ng _ _ (raises_claim_emissions b bl now) eq_refl). Qed.
Lemma ng_increase_balance b bl now d t : ng (increase_balance b bl now d t).
Proof. exact (among_ng _ _ (raises_increase_balance b bl now d t) eq_refl). Qed.
Lemma ng_decrease_balance b bl now d t : ng (decrease_balance b bl now d t).
Proof. exact (among_ng _ _ (raises_decrease_balance b bl now d t) eq_refl). Qed.
Lemma ng_balance_close bl : ng (balance_close bl).
Proof. exact (among_ng _ _ (raises_balance_close bl) eq_refl). Qed.
Lemma ng_withdraw_all b bl now : ng (withdraw_all b bl now).
Proof. exact (among_ng _ _ (raises_withdraw_all b bl now) eq_refl). Qed.
Lemma ng_wrapper_find k la : ng (wrapper_find k la).
Proof. exact (among_ng _ _ (raises_wrapper_find k la) eq_refl). Qed.
Lemma ng_wrapper_find_or_create k b la now : ng (wrapper_find_or_create k b la now).
Proof. exact (among_ng _ _ (raises_wrapper_find_or_create k b la now) eq_refl). Qed.
Lemma ng_validate_bank_state b k : ng (validate_bank_state b k).
Proof. exact (among_ng _ _ (raises_validate_bank_state b k) eq_refl). Qed.
Lemma ng_validate_asset_tags b la : ng (validate_asset_tags b la).
Proof. exact (among_ng _ _ (raises_validate_asset_tags b la) eq_refl). Qed.
Lemma ng_nth_bank w b : ng (nth_bank w b).
Proof. apply simple_nth_bank. Qed.
Lemma ng_nth_acct w b : ng (nth_acct w b).
Proof. apply simple_nth_acct. Qed.
Lemma ng_utok w a b : ng (utok w a b).
Proof. apply simple_utok. Qed.
Lemma ng_xfer_out w a b n : ng (xfer_out w a b n).
Proof. exact (among_ng _ _ (raises_xfer_out w a b n) eq_refl). Qed.
