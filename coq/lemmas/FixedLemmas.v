(* FixedLemmas.v — inversion of the result monad (bind, check, ok_or), then characterising lemmas for the
   I80F48 model; later proofs use these, not the definitions.  At the end, facts about plain integers that lia
   does not find (floors, scaling), one bit-mask fact and the induction rule over a fold. *)
Require Import Base Fixed.
From Coq Require Import ZifyBool.
Local Open Scope Z_scope.

Lemma Ok_inj {A : Type} (a b : A) : Ok a = Ok b -> a = b.
Proof. intros E; inversion E; reflexivity. Qed.

Lemma pair_ok {A B} (a a' : A) (b b' : B) : Ok (a, b) = Ok (a', b') -> a = a' /\ b = b'.
Proof. intros H. apply Ok_inj in H. inversion H; auto. Qed.

Lemma bind_ok {A B} (r : res A) (f : A -> res B) v : bind r f = Ok v -> exists a, r = Ok a /\ f a = Ok v.
Proof. destruct r; cbn; intros H; [eauto | discriminate]. Qed.

(* Inverting one bind of a successful computation: elimination form, so that the proof term mentions the continuation once *)
Lemma bind_elim {A B} (r : res A) (f : A -> res B) v (P : Prop) :
  bind r f = Ok v -> (forall a, r = Ok a -> f a = Ok v -> P) -> P.
Proof. intros H K. apply bind_ok in H as (a & Ha & H). exact (K a Ha H). Qed.
Tactic Notation "bind_inv" ident(H) "as" simple_intropattern(x) simple_intropattern(Hx) :=
  apply (bind_elim _ _ _ _ H); clear H; intros x Hx H.

Lemma ok_or_inv {A} (r : res A) e v : ok_or r e = Ok v -> r = Ok v.
Proof. destruct r as [a|[| |c]]; cbn [ok_or]; intros H; try discriminate; assumption. Qed.

Lemma if_ok_inv {A} (b : bool) (r : res A) e v : (if b then r else Err e) = Ok v -> b = true /\ r = Ok v.
Proof. destruct b; [auto | discriminate]. Qed.

Lemma check_ok c e u : check c e = Ok u -> c = true.
Proof. unfold check. destruct c; [reflexivity | discriminate]. Qed.

Lemma check_true c e : check c e = Ok tt <-> c = true.
Proof. unfold check; destruct c; split; intros H; try reflexivity; discriminate. Qed.

(* a step of type res unit in front of the rest: bind_check when the step is a check, bind_unit for any other *)
Lemma bind_check {B} c e (k : unit -> res B) v :
  bind (check c e) k = Ok v <-> c = true /\ k tt = Ok v.
Proof.
  unfold check; destruct c; cbn; split.
  - intros H; split; [reflexivity | exact H].
  - intros [_ H]; exact H.
  - discriminate.
  - intros [H _]; discriminate.
Qed.

Lemma bind_check_not {B} c e (k : unit -> res B) v :
  bind (check (negb c) e) k = Ok v -> c = false /\ k tt = Ok v.
Proof. destruct c; [discriminate | auto]. Qed.

Lemma bind_unit {B} (r : res unit) (k : res B) v : (let* _ := r in k) = Ok v <-> r = Ok tt /\ k = Ok v.
Proof. destruct r as [[]|e]; cbn; intuition discriminate. Qed.

(* a validator succeeds iff each of its steps does: is_ok turns it into the conjunction of its checks *)
Lemma is_ok_unit (r : res unit) : r = Ok tt <-> is_ok r = true.
Proof. destruct r as [[]|e]; cbn; intuition discriminate. Qed.

Lemma is_ok_bind {B} (r : res unit) (k : res B) : is_ok (let* _ := r in k) = is_ok r && is_ok k.
Proof. destruct r as [[]|e]; reflexivity. Qed.

Lemma is_ok_check c e : is_ok (check c e) = c.
Proof. destruct c; reflexivity. Qed.

Lemma ONE_val : ONE = 281474976710656. Proof. reflexivity. Qed.
Lemma ONE_pos : 0 < ONE. Proof. rewrite ONE_val; lia. Qed.
Lemma I128_MAX_val : I128_MAX = 170141183460469231731687303715884105727. Proof. reflexivity. Qed.
Lemma I128_MIN_val : I128_MIN = -170141183460469231731687303715884105728. Proof. reflexivity. Qed.
Lemma U32_MAXZ_val : U32_MAXZ = 4294967295. Proof. reflexivity. Qed.
Lemma U64_MAX_val : U64_MAX = 18446744073709551615. Proof. reflexivity. Qed.

Lemma in_i128_iff z : in_i128 z = true <-> I128_MIN <= z <= I128_MAX.
Proof. unfold in_i128, in_range. lia. Qed.

Lemma in_i128_false z : in_i128 z = false <-> (z < I128_MIN \/ I128_MAX < z).
Proof. unfold in_i128, in_range. lia. Qed.

Lemma wrap128_id z : I128_MIN <= z <= I128_MAX -> wrap128 z = z.
Proof.
  intros H. unfold wrap128, wrap_s. rewrite I128_MIN_val, I128_MAX_val in H.
  change (2 ^ (128 - 1)) with 170141183460469231731687303715884105728.
  change (2 ^ 128) with 340282366920938463463374607431768211456.
  rewrite Z.mod_small; lia.
Qed.

Lemma chko_ok inr z : inr z = true -> chko inr z = Ok z.
Proof. unfold chko; intros ->; reflexivity. Qed.
Lemma chk_ok inr z : inr z = true -> chk inr z = Ok z.
Proof. unfold chk; intros ->; reflexivity. Qed.
Lemma chko_inv inr z r : chko inr z = Ok r -> r = z /\ inr z = true.
Proof. unfold chko; destruct (inr z); intros H; inversion H; auto. Qed.
Lemma chk_inv inr z r : chk inr z = Ok r -> r = z /\ inr z = true.
Proof. unfold chk; destruct (inr z); intros H; inversion H; auto. Qed.

Lemma cadd_ok a b : I128_MIN <= a + b <= I128_MAX -> cadd a b = Ok (a + b).
Proof. intros; unfold cadd; apply chko_ok, in_i128_iff; assumption. Qed.
Lemma csub_ok a b : I128_MIN <= a - b <= I128_MAX -> csub a b = Ok (a - b).
Proof. intros; unfold csub; apply chko_ok, in_i128_iff; assumption. Qed.
Lemma uadd_ok a b : I128_MIN <= a + b <= I128_MAX -> uadd a b = Ok (a + b).
Proof. intros; unfold uadd; apply chk_ok, in_i128_iff; assumption. Qed.
Lemma usub_ok a b : I128_MIN <= a - b <= I128_MAX -> usub a b = Ok (a - b).
Proof. intros; unfold usub; apply chk_ok, in_i128_iff; assumption. Qed.
Lemma cadd_inv a b r : cadd a b = Ok r -> r = a + b /\ I128_MIN <= r <= I128_MAX.
Proof. unfold cadd; intros H; apply chko_inv in H as [-> H]; apply in_i128_iff in H; auto. Qed.
Lemma csub_inv a b r : csub a b = Ok r -> r = a - b /\ I128_MIN <= r <= I128_MAX.
Proof. unfold csub; intros H; apply chko_inv in H as [-> H]; apply in_i128_iff in H; auto. Qed.
Lemma uadd_inv a b r : uadd a b = Ok r -> r = a + b /\ I128_MIN <= r <= I128_MAX.
Proof. unfold uadd; intros H; apply chk_inv in H as [-> H]; apply in_i128_iff in H; auto. Qed.
Lemma usub_inv a b r : usub a b = Ok r -> r = a - b /\ I128_MIN <= r <= I128_MAX.
Proof. unfold usub; intros H; apply chk_inv in H as [-> H]; apply in_i128_iff in H; auto. Qed.

Lemma cmul_ok a b : I128_MIN <= a * b / ONE <= I128_MAX -> cmul a b = Ok (a * b / ONE).
Proof. intros; unfold cmul, mul_raw; apply chko_ok, in_i128_iff; assumption. Qed.
Lemma cmul_inv a b r : cmul a b = Ok r -> r = a * b / ONE /\ I128_MIN <= r <= I128_MAX.
Proof. unfold cmul, mul_raw; intros H; apply chko_inv in H as [-> H]; apply in_i128_iff in H; auto. Qed.

(* div: for non-negative numerator and positive divisor truncation = floor *)
Lemma div_raw_nonneg a b : 0 <= a -> 0 < b -> div_raw a b = a * ONE / b.
Proof.
  intros Ha Hb. unfold div_raw. apply Z.quot_div_nonneg; [|assumption].
  pose proof ONE_pos. apply Z.mul_nonneg_nonneg; lia.
Qed.
Lemma cdiv_ok a b : 0 <= a -> 0 < b -> a * ONE / b <= I128_MAX -> cdiv a b = Ok (a * ONE / b).
Proof.
  intros Ha Hb Hr. unfold cdiv. replace (b =? 0) with false by lia.
  rewrite div_raw_nonneg by assumption. apply chko_ok, in_i128_iff. split; [|assumption].
  pose proof ONE_pos. rewrite I128_MIN_val.
  assert (0 <= a * ONE / b) by (apply Z.div_pos; [apply Z.mul_nonneg_nonneg; lia | lia]). lia.
Qed.
Lemma wdiv_ok a b : 0 <= a -> 0 < b -> a * ONE / b <= I128_MAX -> wdiv a b = Ok (a * ONE / b).
Proof.
  intros Ha Hb Hr. unfold wdiv. replace (b =? 0) with false by lia.
  rewrite div_raw_nonneg by assumption. rewrite wrap128_id; [reflexivity|]. split; [|assumption].
  pose proof ONE_pos. rewrite I128_MIN_val.
  assert (0 <= a * ONE / b) by (apply Z.div_pos; [apply Z.mul_nonneg_nonneg; lia | lia]). lia.
Qed.
Lemma cdiv_inv_nonneg a b r : 0 <= a -> 0 < b -> cdiv a b = Ok r -> r = a * ONE / b /\ 0 <= r <= I128_MAX.
Proof.
  intros Ha Hb. unfold cdiv. replace (b =? 0) with false by lia.
  rewrite div_raw_nonneg by assumption. intros H; apply chko_inv in H as [-> H]. apply in_i128_iff in H.
  split; [reflexivity|]. split; [|lia]. pose proof ONE_pos.
  apply Z.div_pos; [apply Z.mul_nonneg_nonneg; lia | lia].
Qed.

Lemma of_int_nonneg n : 0 <= n -> 0 <= of_int n.
Proof. unfold of_int. pose proof ONE_pos. nia. Qed.

Lemma cfloor_inv x r : cfloor x = Ok r -> r = x / ONE * ONE.
Proof. unfold cfloor, ffloor_raw. intros H. apply chko_inv in H as [-> _]. reflexivity. Qed.

Lemma cceil_inv x r : cceil x = Ok r -> r = (if x mod ONE =? 0 then x else x / ONE * ONE + ONE).
Proof. unfold cceil, ffloor_raw, ffrac. intros H. apply chko_inv in H as [-> _]. reflexivity. Qed.

Lemma to_u64_inv x n : to_u64_checked x = Ok n -> n = x / ONE /\ 0 <= n <= U64_MAX.
Proof. unfold to_u64_checked, to_int, in_u64, in_range. intros H. apply chko_inv in H as [-> H]. split; [reflexivity | lia]. Qed.

Lemma frac_eq x : x - x / ONE * ONE = x mod ONE.
Proof. pose proof (Z.div_mod x ONE). pose proof ONE_pos. lia. Qed.

Lemma ceil_whole x (c := if x mod ONE =? 0 then x else x / ONE * ONE + ONE) : c / ONE * ONE = c.
Proof.
  pose proof ONE_pos. subst c. destruct (x mod ONE =? 0) eqn:F.
  - pose proof (Z.div_mod x ONE). lia.
  - replace (x / ONE * ONE + ONE) with ((x / ONE + 1) * ONE) by ring. rewrite Z.div_mul by lia. reflexivity.
Qed.

(* a floor, as the two inequalities lia can use *)
Lemma floor_bounds n d : 0 < d -> d * (n / d) <= n < d * (n / d) + d.
Proof. intros H. pose proof (Z.mul_div_le n d H). pose proof (Z.mul_succ_div_gt n d H). lia. Qed.

Lemma mul_div_le d p k : 0 < k -> 0 <= d -> 0 <= p <= k -> 0 <= d * p / k <= d.
Proof.
  intros Hk Hd Hp. split.
  - apply Z.div_pos; [apply Z.mul_nonneg_nonneg; lia | lia].
  - apply Z.div_le_upper_bound; [lia|]. rewrite Z.mul_comm. apply Z.mul_le_mono_nonneg_r; lia.
Qed.

Lemma mul_div_mono d p q k : 0 < k -> 0 <= d -> p <= q -> d * p / k <= d * q / k.
Proof. intros Hk Hd Hpq. apply Z.div_le_mono; [lia|]. apply Z.mul_le_mono_nonneg_l; lia. Qed.

Lemma div_frac_le off dx k : 0 < dx -> 0 <= k -> 0 <= off <= dx -> 0 <= off * k / dx <= k.
Proof. rewrite (Z.mul_comm off k). apply mul_div_le. Qed.

Lemma div_frac_mono o1 o2 dx k : 0 < dx -> 0 <= k -> o1 <= o2 -> o1 * k / dx <= o2 * k / dx.
Proof. rewrite !(Z.mul_comm _ k). apply mul_div_mono. Qed.

Lemma div_frac_strict o1 o2 dx k : 0 < dx <= k -> o1 < o2 -> o1 * k / dx < o2 * k / dx.
Proof.
  intros Hd Ho. pose proof (floor_bounds (o1 * k) dx ltac:(lia)).
  assert (o1 * k / dx + 1 <= o2 * k / dx) by (apply Z.div_le_lower_bound; nia). lia.
Qed.

Lemma land_lor_absorb f k : Z.land (Z.lor f k) k = k.
Proof.
  apply Z.bits_inj'. intros n _. rewrite Z.land_spec, Z.lor_spec.
  destruct (Z.testbit f n), (Z.testbit k n); reflexivity.
Qed.

Lemma foldM_app {A S} (f : S -> A -> res S) l1 l2 s :
  foldM f (l1 ++ l2) s = let* s' := foldM f l1 s in foldM f l2 s'.
Proof.
  revert s. induction l1 as [|x r IH]; intros s; cbn [app foldM]; [reflexivity|].
  destruct (f s x); cbn [bind]; [apply IH | reflexivity].
Qed.

Lemma fold_left_invariant {A B} (P : A -> Prop) (Q : B -> Prop) (f : A -> B -> A) :
  (forall a b, P a -> Q b -> P (f a b)) -> forall l a, P a -> Forall Q l -> P (fold_left f l a).
Proof.
  intros Hf. induction l as [|b r IH]; cbn [fold_left]; intros a Ha Hl; [exact Ha|].
  apply Forall_cons_iff in Hl as [Hb Hr]. apply IH; [apply Hf; assumption | exact Hr].
Qed.
