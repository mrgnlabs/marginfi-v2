(* ConfigLemmas.v — C13: soundness of the configuration validators, the Valid invariant, what each
   successful configuration request returns and what it leaves alone (operational state, flag word). *)
Require Import Base Constants Gate ConfigGen Fixed Curve Config Emode ConfigPaths FixedLemmas.
From Coq Require Import ZifyBool Sorted Permutation.
Local Open Scope Z_scope.

Lemma check_ok_iff c e : check c e = Ok tt <-> c = true.
Proof. exact (check_true c e). Qed.

Lemma two_val : uadd ONE ONE = Ok (2 * ONE).
Proof. reflexivity. Qed.

Lemma ldiff_lor_within f a m : Z.land a m = a -> Z.ldiff (Z.lor f a) m = Z.ldiff f m.
Proof.
  intros H. apply Z.bits_inj'. intros n _.
  rewrite <- H, !Z.ldiff_spec, Z.lor_spec, Z.land_spec.
  destruct (Z.testbit f n), (Z.testbit a n), (Z.testbit m n); reflexivity.
Qed.

Lemma ldiff_ldiff_within f a m : Z.land a m = a -> Z.ldiff (Z.ldiff f a) m = Z.ldiff f m.
Proof.
  intros H. apply Z.bits_inj'. intros n _.
  rewrite <- H, !Z.ldiff_spec, Z.land_spec.
  destruct (Z.testbit f n), (Z.testbit a n), (Z.testbit m n); reflexivity.
Qed.

(* Bank::update_flag touches the bits of `flag` only *)
Lemma update_flag_within flags v flag m f' :
  Z.land flag m = flag -> cb_update_flag flags v flag = Ok f' -> Z.ldiff f' m = Z.ldiff flags m.
Proof.
  unfold cb_update_flag. intros Hm. destruct (Z.land flag GROUP_FLAGS =? flag); [|discriminate].
  intros <-%Ok_inj. destruct v; [apply ldiff_lor_within | apply ldiff_ldiff_within]; exact Hm.
Qed.

Lemma update_flag_opt_within flags o flag m f' :
  Z.land flag m = flag -> cb_update_flag_opt flags o flag = Ok f' -> Z.ldiff f' m = Z.ldiff flags m.
Proof.
  destruct o as [v|]; cbn [cb_update_flag_opt]; [apply update_flag_within|].
  intros _ <-%Ok_inj. reflexivity.
Qed.

Definition weights_ok (c : bank_cfg) : Prop :=
  0 <= bc_awi c <= ONE /\ bc_awi c <= bc_awm c <= 2 * ONE /\
  ONE <= bc_lwm c <= bc_lwi c /\
  (bc_risk_tier c = RISK_ISOLATED -> bc_awi c = 0 /\ bc_awm c = 0) /\
  10 <= bc_max_age c.

Lemma bc_validate_spec c :
  bc_validate c = Ok tt <-> weights_ok c /\ ir_validate (bc_ir c) = Ok tt.
Proof.
  rewrite !is_ok_unit. unfold bc_validate, weights_ok, ORACLE_MIN_AGE. rewrite two_val. cbn [bind].
  rewrite !is_ok_bind, !is_ok_check.
  destruct (Z.eqb_spec (bc_risk_tier c) RISK_ISOLATED); rewrite ?is_ok_bind, ?is_ok_check; cbn [is_ok]; lia.
Qed.

Lemma ss_validate_spec s :
  ss_validate s = Ok tt <->
  0 <= ss_awi s <= ONE /\ ss_awi s <= ss_awm s <= 2 * ONE /\
  (ss_risk_tier s = RISK_ISOLATED -> ss_awi s = 0 /\ ss_awm s = 0).
Proof.
  rewrite is_ok_unit. unfold ss_validate. rewrite two_val. cbn [bind]. rewrite !is_ok_bind, !is_ok_check.
  destruct (Z.eqb_spec (ss_risk_tier s) RISK_ISOLATED); rewrite ?is_ok_bind, ?is_ok_check; cbn [is_ok]; lia.
Qed.

(* the leverage exactly as the code computes it *)
Definition lev_code (cw lw : Z) : Z := ONE * ONE / (ONE - cw * ONE / lw).

Lemma calc_max_leverage_inv cw lw r :
  0 <= cw -> calc_max_leverage cw lw = Ok r ->
  0 < lw /\ cw < lw /\ 0 < ONE - cw * ONE / lw /\ r = lev_code cw lw.
Proof.
  intros Hcw. unfold calc_max_leverage. rewrite !bind_unit, !check_true. intros (H1 & H2 & H).
  apply bind_ok in H as (ratio & Hr & H). apply ok_or_inv, cdiv_inv_nonneg in Hr as [-> _]; [| lia | lia].
  apply bind_ok in H as (den & Hd & H). apply usub_inv in Hd as [-> _].
  rewrite bind_unit, check_true in H. destruct H as [H3 H].
  apply ok_or_inv, cdiv_inv_nonneg in H as [-> _]; [| exact (Z.lt_le_incl _ _ ONE_pos) | lia].
  unfold lev_code. lia.
Qed.

(* exact-integer consequence of "computed leverage <= cap": the true leverage lw/(lw-cw) is below
   cap+1 ulp up to the relative rounding lw/ONE *)
Lemma lev_code_bound cw lw cap :
  0 <= cw -> 0 < lw -> 0 < ONE - cw * ONE / lw -> lev_code cw lw <= cap ->
  ONE * ONE * lw < (cap + 1) * (ONE * (lw - cw) + lw).
Proof.
  intros Hcw Hlw Hden Hl. unfold lev_code in Hl. pose proof ONE_pos as HO.
  set (d := ONE - cw * ONE / lw) in *.
  (* both truncations, undone: ONE^2 < (cap+1) * d  and  d * lw < ONE * (lw - cw) + lw *)
  pose proof (Z.mul_succ_div_gt (ONE * ONE) d Hden) as H1.
  pose proof (Z.mul_succ_div_gt (cw * ONE) lw Hlw) as H2.
  assert (H3 : ONE * ONE < (cap + 1) * d) by nia.
  assert (H4 : d * lw < ONE * (lw - cw) + lw) by (unfold d; lia).
  nia.
Qed.

Definition entry_ok (lwi lwm capi capm : Z) (e : emode_entry) : Prop :=
  ee_is_empty e = true \/
  (0 <= ee_init e <= ee_maint e /\
   0 < lwi /\ 0 < lwm /\ ee_init e < lwi /\ ee_maint e < lwm /\
   lev_code (ee_init e) lwi <= capi /\ lev_code (ee_maint e) lwm <= capm /\
   ONE * ONE * lwi < (capi + 1) * (ONE * (lwi - ee_init e) + lwi) /\
   ONE * ONE * lwm < (capm + 1) * (ONE * (lwm - ee_maint e) + lwm)).

Lemma em_validate_entry_sound lwi lwm capi capm e :
  em_validate_entry lwi lwm capi capm e = Ok tt -> entry_ok lwi lwm capi capm e.
Proof.
  unfold em_validate_entry, entry_ok. destruct (ee_is_empty e); [left; reflexivity|].
  rewrite !bind_unit, !check_true. intros (H1 & H2 & H). right.
  apply bind_ok in H as (li & Hli & H). apply calc_max_leverage_inv in Hli as (A1 & A2 & A3 & ->); [|lia].
  rewrite bind_unit, check_true in H. destruct H as [H3 H].
  apply bind_ok in H as (lm & Hlm & H). apply calc_max_leverage_inv in Hlm as (B1 & B2 & B3 & ->); [|lia].
  apply check_true in H.
  repeat split; try lia; apply lev_code_bound; lia.
Qed.

Lemma em_validate_loop_sound lwi lwm capi capm l :
  em_validate_loop lwi lwm capi capm l = Ok tt -> Forall (entry_ok lwi lwm capi capm) l.
Proof.
  induction l as [|e r IH]; cbn [em_validate_loop]; [constructor|].
  rewrite bind_unit. intros [H1 H]. constructor; [apply em_validate_entry_sound; exact H1 | apply IH; exact H].
Qed.

Fixpoint no_adjacent_dup (l : list Z) : Prop :=
  match l with
  | a :: ((b :: _) as tl) => a <> b /\ no_adjacent_dup tl
  | _ => True
  end.

Lemma has_adjacent_dup_false l : has_adjacent_dup l = false -> no_adjacent_dup l.
Proof.
  induction l as [|a [|b tl] IH]; cbn [has_adjacent_dup no_adjacent_dup]; intros H; auto.
  apply orb_false_iff in H as [H1 H2]. split; [lia | apply IH; exact H2].
Qed.

Lemma u32_to_basis_total v : exists b, u32_to_basis v = Ok b.
Proof. eexists. reflexivity. Qed.

Lemma em_validate_sound es c ci cm :
  em_validate es c ci cm = Ok tt ->
  exists capi capm,
    u32_to_basis ci = Ok capi /\ u32_to_basis cm = Ok capm /\
    Forall (entry_ok (bc_lwi c) (bc_lwm c) capi capm) (es_entries es) /\
    no_adjacent_dup (nonempty_tags (es_entries es)).
Proof.
  unfold em_validate, em_check_dupes. intros H.
  apply bind_ok in H as (capi & Hi & H). apply bind_ok in H as (capm & Hm & H).
  apply bind_unit in H as [Hl H].
  exists capi, capm. repeat split; try assumption.
  - apply em_validate_loop_sound; exact Hl.
  - apply has_adjacent_dup_false. destruct (has_adjacent_dup _); [discriminate | reflexivity].
Qed.

Definition es_sorted (l : list emode_entry) : Prop := StronglySorted Z.le (map ee_tag l).

Lemma ee_insert_perm x l : Permutation (ee_insert x l) (x :: l).
Proof.
  induction l as [|y r IH]; cbn [ee_insert]; [reflexivity|].
  destruct (ee_tag x <=? ee_tag y); [reflexivity|]. rewrite IH. apply perm_swap.
Qed.

Lemma ee_sort_perm l : Permutation (ee_sort l) l.
Proof.
  induction l as [|x r IH]; cbn [ee_sort fold_right]; [reflexivity|].
  rewrite ee_insert_perm. constructor. exact IH.
Qed.

Lemma ee_insert_sorted x l : es_sorted l -> es_sorted (ee_insert x l).
Proof.
  unfold es_sorted. induction l as [|y r IH]; cbn [ee_insert map]; intros H; [repeat constructor|].
  apply StronglySorted_inv in H as [Hs Hf].
  destruct (Z.leb_spec (ee_tag x) (ee_tag y)); cbn [map].
  - constructor; [constructor; assumption|].
    constructor; [assumption|]. eapply Forall_impl; [|exact Hf]. intros t Ht. lia.
  - constructor; [apply IH; exact Hs|]. rewrite ee_insert_perm. cbn [map]. constructor; [lia | exact Hf].
Qed.

Lemma ee_sort_sorted l : es_sorted (ee_sort l).
Proof.
  induction l as [|x r IH]; cbn [ee_sort fold_right]; [constructor | apply ee_insert_sorted; exact IH].
Qed.

(* the non-empty tags of a sorted list are a sorted list, so check_dupes' adjacent comparison finds
   every duplicate *)
Lemma sorted_filter_tags l : es_sorted l -> StronglySorted Z.le (nonempty_tags l).
Proof.
  unfold es_sorted, nonempty_tags. induction l as [|x r IH]; cbn [map filter]; intros H; [constructor|].
  apply StronglySorted_inv in H as [Hs Hf]. destruct (negb (ee_is_empty x)); [|apply IH; exact Hs].
  cbn [map]. constructor; [apply IH; exact Hs|].
  rewrite Forall_map in *. exact (incl_Forall (incl_filter _ _) Hf).
Qed.

Lemma sorted_no_adjacent_nodup (l : list Z) :
  StronglySorted Z.le l -> no_adjacent_dup l -> NoDup l.
Proof.
  induction l as [|a [|b tl] IH]; intros Hs Hn; [constructor | repeat constructor; intros [] |].
  apply StronglySorted_inv in Hs as [Hs Hf]. destruct Hn as [Hab Hn].
  constructor; [|apply IH; assumption].
  (* everything after b is >= b >= a, and b <> a *)
  apply StronglySorted_inv in Hs as [_ Hf']. apply Forall_inv in Hf as Hab'.
  rewrite Forall_forall in Hf'. intros [->|Hin]; [congruence|]. specialize (Hf' a Hin). lia.
Qed.

Definition cfg_valid (c : bank_cfg) : Prop := bc_validate c = Ok tt.

Definition emode_valid (g : caps) (c : bank_cfg) (es : emode_settings) : Prop :=
  em_validate es c (cap_init g) (cap_maint g) = Ok tt /\ es_sorted (es_entries es).

Definition Valid (g : caps) (b : cbank) : Prop :=
  cfg_valid (cb_cfg b) /\ emode_valid g (cb_cfg b) (cb_emode b).

(* es_zeroed is the closed list of ten zero entries: em_validate skips an empty entry before it reads a
   weight or a cap, so it evaluates to Ok tt with c and g symbolic; and the list is its own sort *)
Lemma emode_valid_zeroed g c : emode_valid g c es_zeroed.
Proof. split; [reflexivity | exact (ee_sort_sorted (es_entries es_zeroed))]. Qed.

(* em_validate reads only the entries and the two liability weights: a change that keeps them and
   leaves a valid configuration keeps the invariant *)
Lemma Valid_frame g b b' :
  Valid g b -> cfg_valid (cb_cfg b') -> cb_emode b' = cb_emode b ->
  bc_lwi (cb_cfg b') = bc_lwi (cb_cfg b) -> bc_lwm (cb_cfg b') = bc_lwm (cb_cfg b) -> Valid g b'.
Proof.
  intros (_ & He & Hs) Hc Hem Hi Hm. split; [exact Hc|]. rewrite Hem. split; [|exact Hs].
  unfold em_validate in *. rewrite Hi, Hm. exact He.
Qed.

Definition op_of (b : cbank) : Z := bc_op_state (cb_cfg b).

Definition CONFIGURE_FLAGS : Z :=
  Z.lor (Z.lor PERMISSIONLESS_BAD_DEBT_SETTLEMENT_FLAG FREEZE_SETTINGS) TOKENLESS_REPAYMENTS_ALLOWED.

Lemma bank_configure_inv b o b' :
  bank_configure b o = Ok b' ->
  cfg_valid (cb_cfg b') /\ cb_emode b' = cb_emode b /\
  Z.ldiff (cb_flags b') CONFIGURE_FLAGS = Z.ldiff (cb_flags b) CONFIGURE_FLAGS /\
  match o_op_state o with
  | Some s => op_of b' = s /\ s <> OP_KILLED /\ op_of b <> OP_KILLED
  | None => op_of b' = op_of b
  end.
Proof.
  unfold bank_configure. cbv zeta. intros H.
  apply bind_ok in H as (st & Hst & H).
  apply bind_ok in H as (f1 & H1 & H). apply bind_ok in H as (f2 & H2 & H). apply bind_ok in H as (f3 & H3 & H).
  apply bind_unit in H as [Hv <-%Ok_inj]. cbn [cb_cfg cb_emode cb_flags].
  split; [exact Hv|]. split; [reflexivity|]. split.
  - apply (update_flag_opt_within _ _ _ CONFIGURE_FLAGS) in H1, H2, H3; [congruence | reflexivity..].
  - unfold op_of. cbn [cb_cfg bc_op_state]. destruct (o_op_state o) as [s|].
    + apply bind_unit in Hst as [H4%check_true Hst]. apply bind_unit in Hst as [H5%check_true <-%Ok_inj]. lia.
    + apply Ok_inj in Hst. symmetry. exact Hst.
Qed.

Lemma apply_req_inv g b r b' :
  apply_req g b r = Ok b' ->
  match r with
  | RConfigure o =>
      if cb_get_flag b FREEZE_SETTINGS then b' = bank_configure_unfrozen b o
      else bank_configure b o = Ok b' /\ em_validate (cb_emode b') (cb_cfg b') (cap_init g) (cap_maint g) = Ok tt
  | RInterestOnly io =>
      if cb_get_flag b FREEZE_SETTINGS then b' = b
      else exists ir orig, ir_validate ir = Ok tt /\
                           b' = mkCBank (cfg_with_ir (cb_cfg b) ir orig) (cb_flags b) (cb_emode b)
  | RLimitsOnly d bo l =>
      exists l', b' = mkCBank (cfg_with_limits (cb_cfg b) (set_if_some (bc_deposit_limit (cb_cfg b)) d)
                                               (set_if_some (bc_borrow_limit (cb_cfg b)) bo) l')
                              (cb_flags b) (cb_emode b) /\
                 (cb_get_flag b FREEZE_SETTINGS = true -> l' = bc_init_limit (cb_cfg b))
  | REmode now tag es =>
      let s := mkES tag now (es_flags (cb_emode b)) (ee_sort es) in
      em_validate s (cb_cfg b) (cap_init g) (cap_maint g) = Ok tt /\
      b' = mkCBank (cb_cfg b) (cb_flags b) (update_emode_enabled s)
  | RCloneFrom src =>
      em_validate (cb_emode src) (cb_cfg b) (cap_init g) (cap_maint g) = Ok tt /\
      b' = mkCBank (cb_cfg b) (cb_flags b) (cb_emode src)
  | RPropagate _ _ =>
      exists c, cfg_valid c /\ b' = mkCBank c (cb_flags b) (cb_emode b) /\
                bc_lwi c = bc_lwi (cb_cfg b) /\ bc_lwm c = bc_lwm (cb_cfg b) /\ bc_op_state c = op_of b
  | RMigrateCurve =>
      cfg_valid (cb_cfg b') /\
      (b' = b \/ exists ir, b' = mkCBank (cfg_with_ir (cb_cfg b) ir (bc_orig_fee (cb_cfg b))) (cb_flags b) (cb_emode b))
  end.
Proof.
  destruct r as [o|io|d bo l|now tag es|src|s oc|]; cbn [apply_req].
  - unfold ix_configure_bank. destruct (cb_get_flag b FREEZE_SETTINGS); [intros <-%Ok_inj; reflexivity|].
    intros H. apply bind_ok in H as (b1 & H1 & [He <-%Ok_inj]%bind_unit). auto.
  - unfold ix_configure_interest_only. destruct (cb_get_flag b FREEZE_SETTINGS); [intros <-%Ok_inj; reflexivity|].
    intros [Hi <-%Ok_inj]%bind_unit. eauto.
  - unfold ix_configure_limits_only. destruct (cb_get_flag b FREEZE_SETTINGS); intros <-%Ok_inj; eexists; split;
      reflexivity || discriminate.
  - unfold ix_configure_emode. intros [He <-%Ok_inj]%bind_unit. auto.
  - unfold ix_clone_emode. intros [He <-%Ok_inj]%bind_unit. auto.
  - unfold ix_propagate_staked. cbv zeta. rewrite !bind_unit. intros (_ & _ & Hv & <-%Ok_inj).
    eexists. split; [exact Hv|]. repeat split.
  - unfold ix_migrate_curve. cbv zeta. rewrite bind_unit. intros [Hv H].
    destruct (ir_curve_type (bc_ir (cb_cfg b)) =? INTEREST_CURVE_SEVEN_POINT); [apply Ok_inj in H as <-; auto|].
    apply bind_ok in H as (h & _ & H). apply bind_ok in H as (pu & _ & H). apply bind_ok in H as (pr & _ & H).
    apply bind_unit in H as [Hv' <-%Ok_inj]. eauto.
Qed.

(* side condition of a request: the source bank of a clone is itself in the invariant (for whatever caps
   were in force when its entries were written); every other request is unconditioned *)
Definition req_ok (r : cfg_req) : Prop :=
  match r with RCloneFrom src => exists g', Valid g' src | _ => True end.

(* only the unfrozen Bank::configure writes the operational state or the flag word: it refuses
   OP_KILLED on either side, and of the flags it can change its three bits *)
Lemma req_frame g b r b' :
  apply_req g b r = Ok b' ->
  (op_of b' = op_of b \/ (op_of b <> OP_KILLED /\ op_of b' <> OP_KILLED)) /\
  (cb_flags b' = cb_flags b \/
   (cb_get_flag b FREEZE_SETTINGS = false /\ Z.ldiff (cb_flags b') CONFIGURE_FLAGS = Z.ldiff (cb_flags b) CONFIGURE_FLAGS)).
Proof.
  intros H. apply apply_req_inv in H. destruct r as [o|io|d bo l|now tag es|src|s oc|].
  - destruct (cb_get_flag b FREEZE_SETTINGS); [subst b'; split; left; reflexivity|].
    destruct H as [H _]. apply bank_configure_inv in H as (_ & _ & Hf & Hop). split; [|right; split; [reflexivity | exact Hf]].
    destruct (o_op_state o); [right; lia | left; exact Hop].
  - destruct (cb_get_flag b FREEZE_SETTINGS); [subst b' | destruct H as (ir & orig & _ & ->)]; split; left; reflexivity.
  - destruct H as (l' & -> & _). split; left; reflexivity.
  - destruct H as [_ ->]. split; left; reflexivity.
  - destruct H as [_ ->]. split; left; reflexivity.
  - destruct H as (c & _ & -> & _ & _ & Hop). split; left; [exact Hop | reflexivity].
  - destruct H as [_ [->|(ir & ->)]]; split; left; reflexivity.
Qed.

Lemma killed_forever_seq g rs : forall b, op_of b = OP_KILLED -> op_of (apply_reqs g b rs) = OP_KILLED.
Proof.
  induction rs as [|r rest IH]; cbn [apply_reqs]; intros b Hk; [exact Hk|].
  apply IH. destruct (apply_req g b r) as [b1|e] eqn:E; [|exact Hk].
  apply req_frame in E as [[->|[Hne _]] _]; [exact Hk | contradiction].
Qed.

(* a killed bank stays killed under every sequence of configuration requests, and refuses every instruction kind *)
Lemma killed_permanently g rs b k :
  op_of b = OP_KILLED ->
  opstate_of_Z (op_of (apply_reqs g b rs)) = Some KilledByBankruptcy /\
  validate_bank_state KilledByBankruptcy k = Err (E E_BankKilledByBankruptcy).
Proof.
  intros H. rewrite (killed_forever_seq g rs b H). split; [reflexivity | destruct k; reflexivity].
Qed.

(* regression witnesses of the two defects repaired in the Rust source (/repo d85d2d97 and f3ce7b8f) *)
Definition w_ir : ir_config := mkIR 0 0 0 0 0 0 0 0 4294967295 [mkRP 0 0; mkRP 0 0; mkRP 0 0; mkRP 0 0; mkRP 0 0] 1.
Definition w_cfg (lwi lwm op : Z) : bank_cfg :=
  mkBC (ONE / 2) (ONE / 2 + ONE / 10) lwi lwm U64_MAX U64_MAX w_ir 0 op 0 0 0 60 0 0.
Definition w_caps : caps := mkCaps 644245094 858993458.      (* basis_to_u32 of 15 and 20 *)
Definition w_revive_opt : cfg_opt :=
  mkCO None None None None None None (Some OP_OPERATIONAL) None None None None None None None None None.

(* killed-bank-revived: a killed bank and the request that revived it before the repair *)
Definition w_killed : cbank := mkCBank (w_cfg ONE ONE OP_KILLED) CLOSE_ENABLED_FLAG es_zeroed.

(* emode-clone-unvalidated: entries valid for the source (liability weights 2.0), destination with liability weights 1.0 *)
Definition w_entries : list emode_entry :=
  ee_sort (mkEE 7 0 (ONE + ONE / 2) (ONE + ONE / 2 + ONE / 10) :: repeat ee_zero 9).
Definition w_src : cbank := mkCBank (w_cfg (2 * ONE) (2 * ONE) OP_OPERATIONAL) CLOSE_ENABLED_FLAG (mkES 5 0 1 w_entries).
Definition w_dst : cbank := mkCBank (w_cfg ONE ONE OP_OPERATIONAL) CLOSE_ENABLED_FLAG es_zeroed.
