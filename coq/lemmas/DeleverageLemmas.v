(* DeleverageLemmas.v — C12: the daily withdrawal window of forced deleverages (invariant by induction
   over any list of withdrawals), the health comparison at the end of a deleverage transaction, the
   receivership bracket. *)
Require Import Base Constants PrivGen Fixed Bank BankOps Risk Handlers Deleverage FixedLemmas BankLemmas.
From Coq Require Import ZifyBool.
Local Open Scope Z_scope.

Lemma reset_due_spacing c now : reset_due c now = true -> DAILY_RESET_INTERVAL <= now - wc_last_reset c.
Proof.
  unfold reset_due, sat_i64, clamp, DAILY_RESET_INTERVAL, I64_MIN, I64_MAX. intros H.
  apply Z.leb_le in H. lia.
Qed.

(* the limit is tested on the u64 sum, before that sum is clamped to the u32 field *)
Lemma update_withdrawn_inv c eq now c' :
  update_withdrawn_equity c eq now = Ok c' ->
  let base := if reset_due c now then 0 else wc_withdrawn c in
  let total := Z.min U64_MAX (base + withdrawn_u64 eq) in
  wc_limit c' = wc_limit c /\
  wc_last_reset c' = (if reset_due c now then now else wc_last_reset c) /\
  wc_withdrawn c' = Z.min U32_MAXZ total /\
  (wc_limit c <> 0 -> total <= wc_limit c).
Proof.
  unfold update_withdrawn_equity. cbv zeta.
  destruct (reset_due c now); cbn [wc_limit wc_withdrawn wc_last_reset];
    (destruct (negb _ && _) eqn:E; [discriminate|]); intros <-%Ok_inj; repeat split; lia.
Qed.

Lemma withdrawn_u64_spec eq :
  (0 <= dollars eq <= U64_MAX /\ withdrawn_u64 eq = dollars eq) \/ withdrawn_u64 eq = U64_MAX.
Proof.
  unfold withdrawn_u64, to_u64_checked, chko, dollars. destruct (in_u64 (to_int eq)) eqn:E; [left | right; reflexivity].
  unfold in_u64, in_range in E. split; [lia | reflexivity].
Qed.

Lemma wrun_invariant (P : wtrace -> Prop) :
  (forall s ev, P s -> P (wstep s ev)) -> forall evs s, P s -> P (wrun s evs).
Proof.
  intros Hstep evs s Hs. apply (fold_left_invariant P (fun _ => True)); [auto | exact Hs | apply Forall_forall; auto].
Qed.

Lemma wstep_limit s ev : wc_limit (wt_cache (wstep s ev)) = wc_limit (wt_cache s).
Proof.
  destruct ev as [now eq]. unfold wstep.
  destruct (update_withdrawn_equity (wt_cache s) eq now) as [c'|e] eqn:E; [|reflexivity].
  apply update_withdrawn_inv in E as (Hl & _). destruct (reset_due (wt_cache s) now); exact Hl.
Qed.

Lemma wrun_limit evs : forall s, wc_limit (wt_cache (wrun s evs)) = wc_limit (wt_cache s).
Proof.
  intros s. apply (wrun_invariant (fun s' => wc_limit (wt_cache s') = wc_limit (wt_cache s))); [|reflexivity].
  intros s' ev <-. apply wstep_limit.
Qed.

(* ghost invariant: the cache holds exactly the whole dollars accepted since the last reset (a u32 field, >= 0) *)
Definition WInv (s : wtrace) : Prop :=
  window_dollars (wt_window s) = wc_withdrawn (wt_cache s) /\ 0 <= wc_withdrawn (wt_cache s).

Lemma wstep_window s ev :
  wc_limit (wt_cache s) <> 0 -> wc_limit (wt_cache s) <= 4294967295 ->
  WInv s /\ window_dollars (wt_window s) <= wc_limit (wt_cache s) ->
  WInv (wstep s ev) /\ window_dollars (wt_window (wstep s ev)) <= wc_limit (wt_cache s).
Proof.
  intros Hl0 Hty [[Hinv Hnn] Hle]. destruct ev as [now eq]. unfold wstep, WInv.
  destruct (update_withdrawn_equity (wt_cache s) eq now) as [c'|e] eqn:E; [|auto].
  apply update_withdrawn_inv in E as (_ & _ & Hw & Hcap). cbv zeta in Hw, Hcap. specialize (Hcap Hl0).
  rewrite U32_MAXZ_val in Hw. rewrite U64_MAX_val in Hw, Hcap.
  destruct (withdrawn_u64_spec eq) as [[Hd He]|He]; rewrite He in Hw, Hcap; rewrite ?U64_MAX_val in *.
  - destruct (reset_due (wt_cache s) now); cbn [wt_cache wt_window window_dollars fold_right];
      fold (window_dollars (wt_window s)); lia.
  - (* a value that does not fit u64 can never be accepted under a u32 limit *)
    exfalso. destruct (reset_due (wt_cache s) now); lia.
Qed.

Lemma fresh_window limit now : WInv (mkWT (mkWC limit 0 now) [] []) /\ window_dollars [] <= 0.
Proof. unfold WInv. cbn. lia. Qed.

Lemma configure_keeps_winv s limit now c' :
  WInv s -> configure_withdrawal_limit (wt_cache s) limit now = Ok c' ->
  WInv (mkWT c' (wt_window s) (wt_resets s)) /\ wc_limit c' = limit /\ limit <> 0.
Proof.
  unfold configure_withdrawal_limit. intros Hinv H.
  apply bind_ok in H as (u & Hc%check_ok & <-%Ok_inj). split; [exact Hinv|]. split; [reflexivity | lia].
Qed.

Definition RInv (d : Z) (s : wtrace) : Prop :=
  spaced_by d (wt_resets s) /\ match wt_resets s with [] => True | r :: _ => r = wc_last_reset (wt_cache s) end.

Lemma wstep_resets s ev : RInv DAILY_RESET_INTERVAL s -> RInv DAILY_RESET_INTERVAL (wstep s ev).
Proof.
  intros [Hs Hh]. destruct ev as [now eq]. unfold wstep.
  destruct (update_withdrawn_equity (wt_cache s) eq now) as [c'|e] eqn:E; [|split; assumption].
  apply update_withdrawn_inv in E as (_ & Hr & _).
  destruct (reset_due (wt_cache s) now) eqn:Ed; unfold RInv; cbn [wt_resets wt_cache].
  - split; [|symmetry; exact Hr].
    destruct (wt_resets s) as [|r rest]; [exact I|].
    split; [|exact Hs]. apply reset_due_spacing in Ed. rewrite Hh. exact Ed.
  - split; [exact Hs|]. destruct (wt_resets s); [exact I|]. rewrite Hr. exact Hh.
Qed.

(* the two repaired u32 defects, as regression facts: a withdrawal of 2^32 + 5 dollars under a limit of 1000
   and a second 3e9 dollars under a limit of u32::MAX are refused *)
Lemma wrap_case_refused :
  update_withdrawn_equity (mkWC 1000 0 1700000000) (of_int (4294967296 + 5)) 1700000001 = Err (E E_DailyWithdrawalLimitExceeded).
Proof. reflexivity. Qed.

Lemma saturation_case_refused :
  update_withdrawn_equity (mkWC 4294967295 3000000000 1700000000) (of_int 3000000000) 1700000002 = Err (E E_DailyWithdrawalLimitExceeded).
Proof. reflexivity. Qed.

Lemma dv_tx_inv w c a r signs steps w' c' :
  dv_tx w c a r signs steps = Ok (w', c') ->
  exists w1 s w2, dv_start w a signs = Ok (w1, s) /\ foldM (dv_step a r) steps (w1, c) = Ok (w2, c') /\
                  dv_end w2 a signs s = Ok w'.
Proof.
  unfold dv_tx. intros H. apply bind_ok in H as ([w1 s] & Hst & H). apply bind_ok in H as ([w2 c2] & Hsteps & H).
  apply bind_ok in H as (w3 & Hend & H). apply Ok_inj in H. injection H as <- <-. eauto 6.
Qed.

Lemma nth_res_set_same {A} (l : list A) : forall n v y, nth_res n l = Ok y -> nth_res n (set_nth n v l) = Ok v.
Proof.
  unfold nth_res. induction l as [|x xs IH]; intros [|n] v y H; try discriminate; [reflexivity|]. apply (IH n v y H).
Qed.

(* the maintenance health that start and end compute, read back through maint_health; the account
   written by put_hacct carries the same balances, and positions does not read the accounts *)
Lemma maint_health_put w a ac ac' ps h am lm :
  nth_acct w a = Ok ac -> ha_la ac' = ha_la ac -> positions w (ha_la ac) = Ok ps ->
  pre_liquidation ps None true = Ok (h, am, lm) ->
  maint_health w a = Ok h /\ maint_health (put_hacct w a ac') a = Ok h /\ nth_acct (put_hacct w a ac') a = Ok ac' /\
  h = am - lm.
Proof.
  intros Hac Hla Hps Hpl.
  assert (Hac' : nth_acct (put_hacct w a ac') a = Ok ac') by (apply (nth_res_set_same _ _ _ _ Hac)).
  unfold maint_health. rewrite Hac, Hac'. cbn [bind]. rewrite Hla.
  change (positions (put_hacct w a ac') (ha_la ac)) with (positions w (ha_la ac)). rewrite Hps. cbn [bind]. rewrite Hpl.
  repeat split. unfold pre_liquidation in Hpl. cbn [bind] in Hpl.
  apply bind_ok in Hpl as ([x y] & _ & H). apply bind_ok in H as (h' & [Hh _]%math_ok%csub_inv & H).
  apply bind_ok in H as (u & _ & H). apply Ok_inj in H. injection H as -> -> ->. exact Hh.
Qed.

Lemma dv_start_inv w a signs w1 s :
  dv_start w a signs = Ok (w1, s) ->
  signs = true /\ hw_now w1 = hw_now w /\
  maint_health w a = Ok (sn_assets_maint s - sn_liabs_maint s) /\
  exists ac, nth_acct w a = Ok ac /\ aflag ac G_ACCOUNT_IN_RECEIVERSHIP = false.
Proof.
  unfold dv_start. intros H.
  apply bind_ok in H as (ac & Hac & H).
  apply bind_ok in H as (u1 & Hf%check_ok & H). apply bind_ok in H as (u2 & Hs%check_ok & H).
  apply bind_ok in H as (ps & Hps & H). apply bind_ok in H as ([[h am] lm] & Hpl & H).
  apply bind_ok in H as ([ae le] & _ & H). apply Ok_inj in H. injection H as <- <-.
  destruct (maint_health_put w a ac ac ps h am lm Hac eq_refl Hps Hpl) as (Hm & _ & _ & ->).
  repeat split; [exact Hs | exact Hm |]. exists ac. split; [exact Hac|].
  destruct (aflag ac G_ACCOUNT_IN_RECEIVERSHIP); [discriminate | reflexivity].
Qed.

Lemma dv_end_inv w a signs s w3 :
  dv_end w a signs s = Ok w3 ->
  exists post ac', sn_assets_maint s - sn_liabs_maint s <= post /\ maint_health w3 a = Ok post /\
    nth_acct w3 a = Ok ac' /\
    aflag ac' G_ACCOUNT_IN_RECEIVERSHIP = false /\ aflag ac' G_ACCOUNT_IN_DELEVERAGE = false.
Proof.
  unfold dv_end. intros H.
  apply bind_ok in H as (ac & Hac & H).
  apply bind_ok in H as (u1 & _ & H). apply bind_ok in H as (u2 & _ & H).
  apply bind_ok in H as (ps & Hps & H). apply bind_ok in H as ([[post am] lm] & Hpl & H).
  apply bind_ok in H as ([ae le] & _ & H). apply bind_ok in H as (u3 & Hh & H).
  apply bind_ok in H as (x1 & _ & H). apply bind_ok in H as (x2 & _ & <-%Ok_inj).
  set (ac' := unset_aflag (unset_aflag ac G_ACCOUNT_IN_DELEVERAGE) G_ACCOUNT_IN_RECEIVERSHIP).
  destruct (maint_health_put w a ac ac' ps post am lm Hac eq_refl Hps Hpl) as (_ & Hm & Hac' & _).
  exists post, ac'. split; [|split; [exact Hm | split; [exact Hac'|]]].
  - unfold health_not_worse in Hh. apply bind_ok in Hh as (pre & [-> _]%usub_inv & Hh%check_ok). lia.
  - subst ac'. unfold aflag, unset_aflag. cbn [ha_flags]. split; [rewrite Z.land_ldiff; reflexivity|].
    rewrite Z.ldiff_ldiff_l, Z.lor_comm, <- Z.ldiff_ldiff_l, Z.land_ldiff. reflexivity.
Qed.

Lemma hw_now_put_utok w a b v : hw_now (put_utok w a b v) = hw_now w.
Proof. unfold put_utok. destruct (nth_error (hw_utok w) a); reflexivity. Qed.

Lemma xfer_out_now w a b n w' : xfer_out w a b n = Ok w' -> hw_now w' = hw_now w.
Proof.
  unfold xfer_out. intros H. do 4 apply bind_ok in H as (? & _ & H).
  apply Ok_inj in H as <-. rewrite hw_now_put_utok. reflexivity.
Qed.

Lemma xfer_in_now w a b n w' : xfer_in w a b n = Ok w' -> hw_now w' = hw_now w.
Proof.
  unfold xfer_in. intros H. do 4 apply bind_ok in H as (? & _ & H).
  apply Ok_inj in H as <-. rewrite hw_now_put_utok. reflexivity.
Qed.

Lemma dv_withdraw_inv w c a r b n all w' c' :
  dv_withdraw w c a r b n all = Ok (w', c') ->
  hw_now w' = hw_now w /\ (c' = c \/ exists eq, update_withdrawn_equity c eq (hw_now w) = Ok c').
Proof.
  unfold dv_withdraw. intros H.
  apply bind_ok in H as (hb & _ & H). apply bind_ok in H as (ac & _ & H). do 10 apply bind_ok in H as (? & _ & H).
  apply bind_ok in H as ([[bk2 bl2] pre] & _ & H).
  apply bind_ok in H as (cc & Hc & H). apply bind_ok in H as (w2 & Hx%xfer_out_now & H).
  do 3 apply bind_ok in H as (? & _ & H). apply Ok_inj in H. injection H as <- <-.
  split; [exact Hx|]. destruct (aflag ac G_ACCOUNT_IN_DELEVERAGE).
  - apply bind_ok in Hc as (eq & _ & Hc). eauto.
  - apply Ok_inj in Hc. auto.
Qed.

Lemma dv_repay_now w a r b n all w' : dv_repay w a r b n all = Ok w' -> hw_now w' = hw_now w.
Proof.
  unfold dv_repay. intros H. do 8 apply bind_ok in H as (? & _ & H).
  apply bind_ok in H as ([[bk2 bl2] post] & _ & H). apply bind_ok in H as (w2 & Hx & H).
  do 3 apply bind_ok in H as (? & _ & H). apply Ok_inj in H as <-. cbn [hw_now put_hacct put_hbank].
  destruct (_ && _ && all); [apply Ok_inj in Hx as <-; reflexivity|].
  apply bind_ok in Hx as (pre & _ & Hx%xfer_in_now). exact Hx.
Qed.

Lemma dv_steps_window a r steps : forall w c w' c',
  foldM (dv_step a r) steps (w, c) = Ok (w', c') ->
  hw_now w' = hw_now w /\ exists eqs, window_fold (hw_now w) c eqs = Ok c'.
Proof.
  induction steps as [|s rest IH]; cbn [foldM]; intros w c w' c' H.
  - apply Ok_inj in H. injection H as <- <-. split; [reflexivity|]. exists []. reflexivity.
  - apply bind_ok in H as ([w1 c1] & Hs & (Hn & eqs & Hf)%IH).
    destruct s as [b n all|b n all]; cbn [dv_step fst snd] in Hs.
    + apply dv_withdraw_inv in Hs as (Hn1 & [->|[eq He]]); rewrite Hn1 in *; split; try assumption.
      * exists eqs. exact Hf.
      * exists (eq :: eqs). unfold window_fold. cbn [foldM]. rewrite He. exact Hf.
    + apply bind_ok in Hs as (w1' & Hr%dv_repay_now & Hs). apply Ok_inj in Hs. injection Hs as <- <-.
      rewrite Hr in *. split; [assumption|]. exists eqs. exact Hf.
Qed.

