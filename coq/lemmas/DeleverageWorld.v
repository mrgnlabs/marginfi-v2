(* DeleverageWorld.v — C01 / C02 across forced deleverages: the withdrawal and the repayment a risk admin performs
   inside start_deleverage .. end_deleverage keep the world well-formed (instruction-level ledger, per-bank facts) and
   move the solvency gap within the same bounds as the ordinary withdraw / repay; start and end only touch flags.
   The two instructions differ from the ordinary ones in their guards, the token row and the daily window only, so
   they have the ordinary effects (withdraw_core, repay_facts) and inherit what is proved about those. *)
Require Import Base Constants PrivGen Fixed Curve Bank BankOps Risk TransferFee Handlers Deleverage.
Require Import FixedLemmas HandlerLemmas SolvencyLemmas HandlerEffects SolvencyHandlers HandlerWorld.
From Coq Require Import ZifyBool.
Local Open Scope Z_scope.

Lemma dv_withdraw_effect w c a r b amount all w' c' :
  dv_withdraw w c a r b amount all = Ok (w', c') ->
  exists hb hb' ac ac', eff1 w w' a b hb hb' ac ac' /\ withdraw_core w b amount all hb hb' ac ac'.
Proof.
  intros H. unfold dv_withdraw in H.
  bind_inv H as hb Hhb. bind_inv H as ac Hac.
  do 7 (apply bind_ok in H as (? & _ & H)).
  bind_inv H as bk1 Hacc. bind_inv H as i Hi. bind_inv H as bl Hbl.
  bind_inv H as [[bk2 bl2] pre] Hprim.
  set (paid := if get_flag (b_flags bk2) TOKENLESS_REPAYMENTS_COMPLETE then Z.min pre (hb_vault hb) else pre) in H.
  bind_inv H as c2 _. rewrite put_cells in H.
  bind_inv H as w2 Hx. apply (xfer_out_upd _ _ _ _ _ _ _ _ _ _ Hhb) in Hx as (Hle & u' & ->).
  rewrite (nth_bank_upd _ _ _ _ _ _ _ Hhb) in H. cbn [bind] in H.
  bind_inv H as bk3 Hcache.
  rewrite (nth_acct_upd _ _ _ _ _ _ _ Hac) in H. cbn [bind] in H. rewrite put_cells_upd in H.
  apply Ok_inj, pair_equal_spec in H as [<- <-].
  exists hb, (mk_hb bk3 (hb_vault hb - paid) hb), ac, (sort_acct (mkHA (set_nth i bl2 (ha_la ac)) (ha_flags ac))).
  split; [exact (eff1_upd _ _ _ _ _ _ _ _ Hhb Hac)|].
  exists bk1, i, bl, bk2, bl2, pre, paid, bk3.
  split; [exact Hacc|]. split; [exact Hi|]. split; [exact Hbl|].
  split.
  { destruct all; [exact Hprim|].
    apply bind_ok in Hprim as (pre0 & Hpre & Hprim). apply bind_ok in Hprim as ([bk2' bl2'] & Hdec & Hprim).
    apply Ok_inj in Hprim. apply pair_equal_spec in Hprim as [Hp1 <-]. apply pair_equal_spec in Hp1 as [<- <-].
    split; assumption. }
  split; [reflexivity|]. split; [exact Hle|]. split; [exact Hcache|]. split; reflexivity.
Qed.

Theorem dv_withdraw_keeps_world w c a r b amount all w' c' :
  0 <= amount -> HOk2 w -> dv_withdraw w c a r b amount all = Ok (w', c') -> HOk2 w'.
Proof.
  intros Hamt H2 H. destruct (dv_withdraw_effect _ _ _ _ _ _ _ _ _ H) as (hb & hb' & ac & ac' & E & F).
  eapply withdraw_core_HOk2; eauto.
Qed.

Theorem dv_repay_keeps_world w a r b amount all w' :
  0 <= amount -> HOk2 w -> dv_repay w a r b amount all = Ok w' -> HOk2 w'.
Proof.
  intros Hamt H2 H. destruct (dv_repay_effect _ _ _ _ _ _ _ H) as (hb & hb' & ac & ac' & E & F).
  eapply repay_HOk2; eauto.
Qed.

Lemma flags_only_keeps_world w a ac ac' :
  HOk2 w -> nth_acct w a = Ok ac -> ha_la ac' = ha_la ac -> HOk2 (put_hacct w a ac').
Proof.
  intros (Hpf & L & Hb) Ha Hla. split; [exact Hpf|]. split; [|exact Hb].
  unfold HLedger, bw_of, put_hacct. cbn [hw_banks hw_accts hw_now hw_pf].
  apply nth_res_ok in Ha. rewrite (map_set_nth_same ha_la _ _ _ _ Ha Hla). exact L.
Qed.

Lemma dv_start_keeps_world w a signs w' s :
  HOk2 w -> dv_start w a signs = Ok (w', s) -> HOk2 w'.
Proof.
  intros H2 H. unfold dv_start in H.
  apply bind_ok in H as (ac & Hac & H). do 3 (apply bind_ok in H as (? & _ & H)).
  apply bind_ok in H as ([[h0 am] lm] & _ & H). apply bind_ok in H as ([ae le] & _ & H).
  apply Ok_inj in H. apply pair_equal_spec in H as [<- _].
  apply (flags_only_keeps_world _ _ _ _ H2 Hac). reflexivity.
Qed.

Lemma dv_end_keeps_world w a signs s w' :
  HOk2 w -> dv_end w a signs s = Ok w' -> HOk2 w'.
Proof.
  intros H2 H. unfold dv_end in H.
  apply bind_ok in H as (ac & Hac & H). do 3 (apply bind_ok in H as (? & _ & H)).
  apply bind_ok in H as ([[post p1] p2] & _ & H). apply bind_ok in H as ([ae le] & _ & H).
  do 3 (apply bind_ok in H as (? & _ & H)). apply Ok_inj in H as <-.
  apply (flags_only_keeps_world _ _ _ _ H2 Hac). reflexivity.
Qed.

Definition dstep_ok (s : dstep) : Prop :=
  match s with DWithdraw _ n _ | DRepay _ n _ => 0 <= n end.

Lemma dv_step_keeps_world a r wc s wc' :
  dstep_ok s -> HOk2 (fst wc) -> dv_step a r wc s = Ok wc' -> HOk2 (fst wc').
Proof.
  intros Hs H2 H. destruct s as [b n all | b n all]; cbn [dv_step dstep_ok] in *.
  - destruct wc' as [w' c']. eapply dv_withdraw_keeps_world; eauto.
  - apply bind_ok in H as (w' & Hr & H). apply Ok_inj in H. subst wc'. cbn [fst]. eapply dv_repay_keeps_world; eauto.
Qed.

Lemma dv_steps_keep_world a r steps : forall wc wc',
  Forall dstep_ok steps -> HOk2 (fst wc) -> foldM (dv_step a r) steps wc = Ok wc' -> HOk2 (fst wc').
Proof.
  induction steps as [|s rest IH]; intros wc wc' Hall H2 H; cbn [foldM] in H.
  - apply Ok_inj in H. subst wc'. exact H2.
  - apply bind_ok in H as (wc1 & H1 & H). inversion Hall as [|? ? Hs Hrest]; subst.
    eapply IH; [exact Hrest | eapply dv_step_keeps_world; eauto | exact H].
Qed.

(* the whole forced-deleverage transaction [start_deleverage; withdrawals / repayments ...; end_deleverage] *)
Theorem dv_tx_keeps_world w c a r signs steps w' c' :
  Forall dstep_ok steps -> HOk2 w -> dv_tx w c a r signs steps = Ok (w', c') -> HOk2 w'.
Proof.
  intros Hall H2 H. unfold dv_tx in H.
  apply bind_ok in H as ([w1 snap] & Hs & H). apply bind_ok in H as ([w2 c2] & Hf & H). apply bind_ok in H as (w3 & He & H).
  apply Ok_inj in H. apply pair_equal_spec in H as [<- _].
  pose proof (dv_start_keeps_world _ _ _ _ _ H2 Hs) as H21.
  pose proof (dv_steps_keep_world a r steps (w1, c) (w2, c2) Hall H21 Hf) as H22.
  exact (dv_end_keeps_world _ _ _ _ _ H22 He).
Qed.

Theorem dv_withdraw_gap w c a r b amount all w' c' :
  0 <= amount -> HOk2 w -> dv_withdraw w c a r b amount all = Ok (w', c') ->
  exists hb hb', nth_bank w b = Ok hb /\ nth_bank w' b = Ok hb' /\
    gap hb - acc_slack w hb - sv_slack w hb <= gap hb' /\
    (forall k, k <> b -> nth_bank w' k = nth_bank w k).
Proof.
  intros Hamt H2 H. destruct (dv_withdraw_effect _ _ _ _ _ _ _ _ _ H) as (hb & hb' & ac & ac' & E & F).
  destruct (eff1_banks _ _ _ _ _ _ _ _ E) as (B1 & B2 & B3).
  destruct (HOk_eff1 _ _ _ _ _ _ _ _ (HOk2_HOk _ H2) E) as (Hok & _ & Wac & Pac).
  destruct (withdraw_core_gap _ _ _ _ _ _ _ _ Hamt F Hok Wac Pac) as (_ & _ & G).
  exists hb, hb'. repeat split; assumption.
Qed.

Theorem dv_repay_gap w a r b amount all w' :
  0 <= amount -> HOk2 w -> dv_repay w a r b amount all = Ok w' ->
  exists hb hb', nth_bank w b = Ok hb /\ nth_bank w' b = Ok hb' /\
    (gap hb - acc_slack w hb - (if all then ONE else 0) <= gap hb' \/ tokenless_writeoff w hb all) /\
    (forall k, k <> b -> nth_bank w' k = nth_bank w k).
Proof.
  intros Hamt H2 H. destruct (dv_repay_effect _ _ _ _ _ _ _ H) as (hb & hb' & ac & ac' & E & F).
  destruct (eff1_banks _ _ _ _ _ _ _ _ E) as (B1 & B2 & B3).
  destruct (HOk_eff1 _ _ _ _ _ _ _ _ (HOk2_HOk _ H2) E) as (Hok & _ & Wac & Pac).
  destruct (repay_gap _ _ _ _ _ _ _ _ _ Hamt F Hok Wac Pac) as (_ & _ & G).
  exists hb, hb'. repeat split; assumption.
Qed.

Theorem dv_tx_keeps_ledger w c a r signs steps w' c' :
  Forall dstep_ok steps -> HOk2 w -> dv_tx w c a r signs steps = Ok (w', c') -> HLedger w'.
Proof. intros Hall H2 H. exact (proj1 (proj2 (dv_tx_keeps_world _ _ _ _ _ _ _ _ Hall H2 H))). Qed.
