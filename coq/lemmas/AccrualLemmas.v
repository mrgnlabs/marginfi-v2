(* AccrualLemmas.v — behind C06: a successful interest accrual is inverted into its three cases (same time,
   an empty side, a real accrual), is monotone, books non-negative fees, and conserves value in both
   directions: what it charges the borrowers equals what it credits to the depositors and the three fee
   buckets, up to an explicit fixed-point allowance. *)
Require Import Base Constants Fixed Curve Bank FixedLemmas BankLemmas CurveLemmas.
From Coq Require Import ZifyBool.
Local Open Scope Z_scope.

Definition YEAR : Z := 31536000.
Lemma SPY_val : SECONDS_PER_YEAR = YEAR * ONE. Proof. reflexivity. Qed.
Lemma YEAR_pos : 0 < YEAR. Proof. reflexivity. Qed.

(* Every quantity of an accrual is a floor; each lemma below bounds the error of one group of floors, with
   plain integers, so that the conservation theorems are linear combinations of them. *)
(* t shares at value v are worth V; when the value grows by the factor 1 + ir the worth grows by V * ir,
   less at most t (floor of the new value), plus at most ir (floor in V) *)
Lemma growth_bounds t v v' V ir : 0 <= t -> 0 <= v -> 0 <= ir ->
  V = t * v / ONE -> v' = v * (ONE + ir) / ONE ->
  V * ir - t <= t * (v' - v) <= (V + 1) * ir.
Proof.
  intros Ht Hv Hi -> ->. pose proof ONE_pos as HO.
  pose proof (floor_bounds (t * v) ONE HO) as B1. pose proof (floor_bounds (v * (ONE + ir)) ONE HO) as B2.
  set (V := t * v / ONE) in *. set (v' := v * (ONE + ir) / ONE) in *.
  assert (U1 : t * ((v' - v) * ONE) <= t * (v * ir)) by (apply Z.mul_le_mono_nonneg_l; lia).
  assert (U2 : t * v * ir <= (ONE * V + ONE) * ir) by (apply Z.mul_le_mono_nonneg_r; lia).
  assert (L1 : t * (v * ir - ONE) <= t * ((v' - v) * ONE)) by (apply Z.mul_le_mono_nonneg_l; lia).
  assert (L2 : ONE * V * ir <= t * v * ir) by (apply Z.mul_le_mono_nonneg_r; lia).
  split; apply (Z.mul_le_mono_pos_r _ _ ONE HO); lia.
Qed.

(* utilisation -> lending rate -> lending interest over dt: three nested floors *)
Lemma lending_chain A L ur base lend irl dt : 0 < A -> 0 <= L -> 0 <= base -> 0 <= dt ->
  ur = L * ONE / A -> lend = base * ur / ONE -> irl = lend * dt / YEAR ->
  A * irl * YEAR <= base * dt * L /\
  dt * (base * L * ONE) <= A * irl * YEAR * ONE + dt * (base * A + A * ONE) + A * YEAR * ONE.
Proof.
  intros HA HL Hb Hd -> -> ->. pose proof ONE_pos as HO. pose proof YEAR_pos as HY.
  set (ur := L * ONE / A). set (lend := base * ur / ONE). set (irl := lend * dt / YEAR).
  pose proof (floor_bounds (L * ONE) A HA) as B1. pose proof (floor_bounds (base * ur) ONE HO) as B2.
  pose proof (floor_bounds (lend * dt) YEAR HY) as B3. fold ur in B1. fold lend in B2. fold irl in B3.
  assert (0 <= ur) by (apply Z.div_pos; lia). assert (0 <= lend) by (apply Z.div_pos; lia).
  split.
  - apply (Z.mul_le_mono_pos_r _ _ ONE HO).
    assert ((YEAR * irl) * (A * ONE) <= (lend * dt) * (A * ONE)) by (apply Z.mul_le_mono_nonneg_r; lia).
    assert ((ONE * lend) * (dt * A) <= (base * ur) * (dt * A)) by (apply Z.mul_le_mono_nonneg_r; lia).
    assert ((A * ur) * (base * dt) <= (L * ONE) * (base * dt)) by (apply Z.mul_le_mono_nonneg_r; lia).
    lia.
  - assert ((L * ONE) * (base * dt) <= (A * ur + A) * (base * dt)) by (apply Z.mul_le_mono_nonneg_r; lia).
    assert ((base * ur) * (A * dt) <= (ONE * lend + ONE) * (A * dt)) by (apply Z.mul_le_mono_nonneg_r; lia).
    assert ((lend * dt) * (A * ONE) <= (YEAR * irl + YEAR) * (A * ONE)) by (apply Z.mul_le_mono_nonneg_r; lia).
    lia.
Qed.

(* a fee payment for the period: two nested floors *)
Definition pay (L apr dt : Z) : Z := L * apr / ONE * dt / YEAR.

Lemma pay_zero L dt : pay L 0 dt = 0.
Proof. unfold pay. rewrite Z.mul_0_r. reflexivity. Qed.

Lemma pay_bounds L apr dt : 0 <= L -> 0 <= apr -> 0 <= dt ->
  0 <= pay L apr dt /\ pay L apr dt * YEAR * ONE <= L * apr * dt < pay L apr dt * YEAR * ONE + YEAR * ONE + ONE * dt.
Proof.
  intros HL Ha Hd. unfold pay. pose proof ONE_pos as HO. pose proof YEAR_pos as HY.
  pose proof (floor_bounds (L * apr) ONE HO) as B1. set (q := L * apr / ONE) in *.
  pose proof (floor_bounds (q * dt) YEAR HY) as B2. set (r := q * dt / YEAR) in *.
  assert (0 <= q) by (apply Z.div_pos; [apply Z.mul_nonneg_nonneg|]; lia).
  assert (0 <= r) by (apply Z.div_pos; [apply Z.mul_nonneg_nonneg|]; lia).
  assert (ONE * q * dt <= L * apr * dt) by (apply Z.mul_le_mono_nonneg_r; lia).
  assert (L * apr * dt <= (ONE * q + ONE - 1) * dt) by (apply Z.mul_le_mono_nonneg_r; lia).
  assert (YEAR * r * ONE <= q * dt * ONE) by (apply Z.mul_le_mono_nonneg_r; lia).
  assert ((q * dt + 1) * ONE <= (YEAR * r + YEAR) * ONE) by (apply Z.mul_le_mono_nonneg_r; lia).
  lia.
Qed.

Section Conservation.
  Context (tas tls asv lsv asv' lsv' A L ur base lend bor g i p irl irb dt : Z)
          (Htas : 0 <= tas) (Htls : 0 <= tls) (Hasv : 0 <= asv) (Hlsv : 0 <= lsv)
          (Hbase : 0 <= base) (Hg : 0 <= g) (Hi : 0 <= i) (Hp : 0 <= p) (Hdt : 0 <= dt)
          (HA : A = tas * asv / ONE) (HA0 : 0 < A) (HL : L = tls * lsv / ONE) (HL0 : 0 < L)
          (Hur : ur = L * ONE / A) (Hlend : lend = base * ur / ONE)
          (Hirl : irl = lend * dt / YEAR) (Hirb : irb = bor * dt / YEAR)
          (Hasv' : asv' = asv * (ONE + irl) / ONE) (Hlsv' : lsv' = lsv * (ONE + irb) / ONE)
          (Hsum : base + g + i + p <= bor <= base + g + i + p + 3).
  Let credit := tas * (asv' - asv).
  Let charge := tls * (lsv' - lsv).
  Let fees := pay L i dt + pay L g dt + pay L p dt.

  Lemma rounding_facts : 0 <= irl /\ 0 <= irb /\ YEAR * irb <= bor * dt < YEAR * irb + YEAR.
  Proof.
    pose proof (floor_bounds (bor * dt) YEAR YEAR_pos) as B. pose proof ONE_pos.
    assert (0 <= ur) by (subst ur; apply Z.div_pos; lia).
    assert (0 <= lend) by (subst lend; apply Z.div_pos; lia).
    assert (0 <= irl) by (rewrite Hirl; apply Z.div_pos; [apply Z.mul_nonneg_nonneg; lia | apply YEAR_pos]).
    assert (0 <= irb) by (rewrite Hirb; apply Z.div_pos; [apply Z.mul_nonneg_nonneg; lia | apply YEAR_pos]).
    rewrite <- Hirb in B. lia.
  Qed.

  Lemma credit_lt_charge : credit + fees * ONE < charge + (L + tls + irl + 1).
  Proof using All.
    destruct rounding_facts as (Hirl0 & Hirb0 & B). pose proof ONE_pos as HO. pose proof YEAR_pos as HY.
    destruct (growth_bounds tas asv asv' A irl Htas Hasv Hirl0 HA Hasv') as [_ C1].
    destruct (growth_bounds tls lsv lsv' L irb Htls Hlsv Hirb0 HL Hlsv') as [C3 _].
    destruct (lending_chain A L ur base lend irl dt HA0 ltac:(lia) Hbase Hdt Hur Hlend Hirl) as [C2 _].
    destruct (pay_bounds L i dt ltac:(lia) Hi Hdt) as (_ & Pi & _).
    destruct (pay_bounds L g dt ltac:(lia) Hg Hdt) as (_ & Pg & _).
    destruct (pay_bounds L p dt ltac:(lia) Hp Hdt) as (_ & Pp & _).
    fold credit in C1. fold charge in C3. unfold fees.
    apply (Z.mul_lt_mono_pos_r YEAR _ _ HY).
    assert (credit * YEAR <= (A + 1) * irl * YEAR) by (apply Z.mul_le_mono_nonneg_r; lia).
    assert ((L * irb - tls) * YEAR <= charge * YEAR) by (apply Z.mul_le_mono_nonneg_r; lia).
    assert ((base + g + i + p) * (L * dt) <= bor * (L * dt)) by (apply Z.mul_le_mono_nonneg_r; lia).
    assert (L * (bor * dt) <= L * (YEAR * irb + YEAR - 1)) by (apply Z.mul_le_mono_nonneg_l; lia).
    lia.
  Qed.

  (* everything is multiplied by YEAR * ONE so that no division appears *)
  Lemma charge_le_credit :
    (charge - credit - fees * ONE) * YEAR * ONE
    <= dt * (ONE * (3 * L + bor + 3) + A * (base + ONE) + 3 * ONE * ONE) + (A + tas + 3 * ONE) * YEAR * ONE.
  Proof using All.
    destruct rounding_facts as (Hirl0 & Hirb0 & B). pose proof ONE_pos as HO. pose proof YEAR_pos as HY.
    destruct (growth_bounds tas asv asv' A irl Htas Hasv Hirl0 HA Hasv') as [C2 _].
    destruct (growth_bounds tls lsv lsv' L irb Htls Hlsv Hirb0 HL Hlsv') as [_ C1].
    destruct (lending_chain A L ur base lend irl dt HA0 ltac:(lia) Hbase Hdt Hur Hlend Hirl) as [_ C3].
    destruct (pay_bounds L i dt ltac:(lia) Hi Hdt) as (_ & _ & Pi).
    destruct (pay_bounds L g dt ltac:(lia) Hg Hdt) as (_ & _ & Pg).
    destruct (pay_bounds L p dt ltac:(lia) Hp Hdt) as (_ & _ & Pp).
    fold credit in C2. fold charge in C1. unfold fees.
    (* the context is large at this point: each product gets its factors' signs directly, and the final combination sees
       nothing but the seven inequalities it adds up *)
    assert (Hod : 0 <= ONE * dt) by (apply Z.mul_nonneg_nonneg; [exact (Z.lt_le_incl _ _ HO) | exact Hdt]).
    assert (Hyo : 0 <= YEAR * ONE) by (apply Z.mul_nonneg_nonneg; apply Z.lt_le_incl; assumption).
    assert (Hlo : 0 <= (L + 1) * ONE) by (apply Z.mul_nonneg_nonneg; [clear - HL0; lia | exact (Z.lt_le_incl _ _ HO)]).
    assert (K1 : charge * (YEAR * ONE) <= (L + 1) * irb * (YEAR * ONE)) by (apply Z.mul_le_mono_nonneg_r; assumption).
    assert (K2 : (L + 1) * ONE * (YEAR * irb) <= (L + 1) * ONE * (bor * dt)) by (apply Z.mul_le_mono_nonneg_l; [assumption | exact (proj1 B)]).
    assert (K3 : bor * ((L + 1) * ONE * dt) <= (base + g + i + p + 3) * ((L + 1) * ONE * dt))
      by (apply Z.mul_le_mono_nonneg_r; [apply Z.mul_nonneg_nonneg; assumption | exact (proj2 Hsum)]).
    assert (K4 : (base + g + i + p) * (ONE * dt) <= bor * (ONE * dt)) by (apply Z.mul_le_mono_nonneg_r; [assumption | exact (proj1 Hsum)]).
    assert (K5 : (A * irl - tas) * (YEAR * ONE) <= credit * (YEAR * ONE)) by (apply Z.mul_le_mono_nonneg_r; assumption).
    assert (K6 : (L * i * dt + L * g * dt + L * p * dt) * ONE
            <= ((pay L i dt + pay L g dt + pay L p dt) * YEAR * ONE + 3 * YEAR * ONE + 3 * ONE * dt) * ONE)
      by (apply Z.mul_le_mono_nonneg_r; [exact (Z.lt_le_incl _ _ HO) | clear - Pi Pg Pp; lia]).
    clear - K1 K2 K3 K4 K5 K6 C3. lia.
  Qed.
End Conservation.

Lemma accrued_inv apr dt v r : 0 <= apr -> 0 <= dt -> accrued_per_period apr dt v = Ok r ->
  exists ir, ir = apr * dt / YEAR /\ 0 <= ir /\ r = v * (ONE + ir) / ONE.
Proof.
  intros Ha Hd H. unfold accrued_per_period in H. pose proof ONE_pos as HO.
  apply bind_ok in H as (a & Ha1 & H). apply cmul_inv in Ha1 as [Ha1 _].
  assert (Ea : a = apr * dt).
  { subst a. unfold of_int. replace (apr * (dt * ONE)) with (apr * dt * ONE) by ring. apply Z.div_mul. lia. }
  apply bind_ok in H as (ir & Hir & H). rewrite SPY_val in Hir.
  apply cdiv_inv_nonneg in Hir as [Hir Hir0]; [| rewrite Ea; nia | unfold YEAR; lia].
  apply bind_ok in H as (f & Hf & H). apply cadd_inv in Hf as [-> _].
  apply cmul_inv in H as [-> _].
  exists ir. split; [|split; [lia | reflexivity]].
  rewrite Hir, Ea. apply Z.div_mul_cancel_r; unfold YEAR; lia.
Qed.

Lemma payment_inv apr dt v r : 0 <= apr -> 0 <= dt -> 0 <= v -> payment_for_period apr dt v = Ok r ->
  r = pay v apr dt /\ 0 <= r.
Proof.
  intros Ha Hd Hv H. unfold payment_for_period in H. pose proof ONE_pos as HO.
  destruct (apr =? 0) eqn:E.
  - apply Ok_inj in H. subst r. replace apr with 0 by lia. rewrite pay_zero. lia.
  - apply bind_ok in H as (a & Ha1 & H). apply cmul_inv in Ha1 as [Ha1 _].
    apply bind_ok in H as (b & Hb & H). apply cmul_inv in Hb as [Hb _].
    assert (Ha0 : 0 <= a) by (subst a; apply amount_nonneg; lia).
    assert (Eb : b = a * dt).
    { subst b. unfold of_int. replace (a * (dt * ONE)) with (a * dt * ONE) by ring. apply Z.div_mul. lia. }
    rewrite SPY_val in H. apply cdiv_inv_nonneg in H as [Hr Hr0]; [| rewrite Eb; nia | unfold YEAR; lia].
    split; [|lia]. unfold pay. rewrite Hr, Eb, Ha1. apply Z.div_mul_cancel_r; unfold YEAR; lia.
Qed.


Lemma add_fee_inv fee cur (set : fx -> bank -> bank) b r :
  (if 0 <? fee then let* g := math (cadd fee cur) in Ok (set g b) else Ok b) = Ok r ->
  r = set (cur + fee) b \/ (fee <= 0 /\ r = b).
Proof.
  intros H. destruct (0 <? fee) eqn:G.
  - left. apply bind_ok in H as (g & Hg & H). apply math_ok, cadd_inv in Hg as [-> _]. apply Ok_inj in H as <-. f_equal. lia.
  - right. apply Ok_inj in H. split; [lia | auto].
Qed.

(* everything a "real" accrual (dt > 0, non-empty bank) does *)
Record accrue_facts (b : bank) (pf : prog_fees) (now : Z) (b' : bank)
                    (dt A L ur : Z) (r : rates) (irl irb : Z) : Prop := {
  af_dt_def : dt = now - b_last_update b /\ 0 < dt;
  af_A_def : A = b_tas b * b_asv b / ONE /\ A <> 0;
  af_L_def : L = b_tls b * b_lsv b / ONE /\ L <> 0;
  af_ur_def : cdiv L A = Ok ur;
  af_rates : calc_interest_rate (b_ir b) pf ur = Ok r;
  af_irl_def : irl = r_lending r * dt / YEAR /\ 0 <= irl;
  af_irb_def : irb = r_borrowing r * dt / YEAR /\ 0 <= irb;
  af_asv : b_asv b' = b_asv b * (ONE + irl) / ONE;
  af_lsv : b_lsv b' = b_lsv b * (ONE + irb) / ONE;
  af_ins : b_ins b' = b_ins b + pay L (r_insurance r) dt;
  af_grp : b_grp b' = b_grp b + pay L (r_group r) dt;
  af_prog : b_prog b' = b_prog b + pay L (r_protocol r) dt;
  af_tot : b_tas b' = b_tas b /\ b_tls b' = b_tls b;
  af_lu : b_last_update b' = now
}.

Lemma accrue_inv b pf now b' :
  0 <= b_tls b -> 0 <= b_lsv b ->
  accrue_interest b pf now = Ok b' ->
  (now = b_last_update b /\ b' = b) \/
  (b_last_update b < now /\ b' = set_b_last_update now b /\
     (b_tas b * b_asv b / ONE = 0 \/ b_tls b * b_lsv b / ONE = 0)) \/
  (exists dt A L ur r irl irb, accrue_facts b pf now b' dt A L ur r irl irb).
Proof.
  intros Htls Hlsv H. unfold accrue_interest in H. pose proof ONE_pos as HO.
  apply bind_ok in H as (d & Hd & H). apply chk_inv in Hd as [-> _].
  apply bind_ok in H as (dt & Hdt & H). apply chk_inv in Hdt as [-> Hdtr].
  unfold in_u64, in_range in Hdtr.
  destruct (now - b_last_update b =? 0) eqn:E0.
  { left. apply Ok_inj in H. split; [lia | auto]. }
  apply bind_ok in H as (ta & Hta & H). apply get_asset_amount_inv in Hta.
  apply bind_ok in H as (tl & Htl & H). apply get_liability_amount_inv in Htl.
  destruct ((ta =? 0) || (tl =? 0)) eqn:Ez.
  { right; left. apply Ok_inj in H. split; [lia|]. split; [auto|]. subst ta tl. lia. }
  right; right.
  apply bind_ok in H as (ch & Hch & H). apply math_ok in Hch.
  unfold accrual_state_changes in Hch.
  apply bind_ok in Hch as (ur & Hur & Hch).
  apply bind_ok in Hch as (r & Hr & Hch).
  pose proof (calc_interest_rate_facts _ _ _ _ Hr) as RF. destruct RF as [R1 R2 R3 R4 R5 R6 R7 _ _].
  assert (Hdt0 : 0 <= now - b_last_update b) by lia.
  assert (Htl0 : 0 <= tl) by (subst tl; apply amount_nonneg; lia).
  apply bind_ok in Hch as (nasv & Hna & Hch). apply accrued_inv in Hna as (irl & Hirl & Hirl0 & Hna); try lia.
  apply bind_ok in Hch as (nlsv & Hnl & Hch). apply accrued_inv in Hnl as (irb & Hirb & Hirb0 & Hnl); try lia.
  apply bind_ok in Hch as (ins & Hins & Hch). apply payment_inv in Hins as [Hins Hins0]; try lia.
  apply bind_ok in Hch as (grp & Hgrp & Hch). apply payment_inv in Hgrp as [Hgrp Hgrp0]; try lia.
  apply bind_ok in Hch as (prog & Hprog & Hch). apply payment_inv in Hprog as [Hprog Hprog0]; try lia.
  apply Ok_inj in Hch. subst ch. cbn [ac_asv ac_lsv ac_ins ac_grp ac_prog] in H.
  apply bind_ok in H as (dsv & _ & H). apply bind_ok in H as (acc & _ & H).
  exists (now - b_last_update b), ta, tl, ur, r, irl, irb.
  (* the three conditional fee-bucket updates *)
  set (b2 := set_b_lsv nlsv (set_b_asv nasv (set_b_last_update now b))) in H.
  apply bind_ok in H as (b3 & H3 & H). apply bind_ok in H as (b4 & H4 & H).
  assert (E3 := add_fee_inv _ _ set_b_grp _ _ H3). assert (E4 := add_fee_inv _ _ set_b_ins _ _ H4).
  assert (E5 := add_fee_inv _ _ set_b_prog _ _ H).
  assert (Fg : b_grp b' = b_grp b + grp /\ b_ins b' = b_ins b + ins /\ b_prog b' = b_prog b + prog /\
               b_asv b' = nasv /\ b_lsv b' = nlsv /\ b_tas b' = b_tas b /\ b_tls b' = b_tls b /\ b_last_update b' = now).
  { destruct E3 as [-> | [G3 ->]]; destruct E4 as [-> | [G4 ->]]; destruct E5 as [-> | [G5 ->]];
    unfold b2; cbn; repeat split; lia. }
  destruct Fg as (F1 & F2 & F3 & F4 & F5 & F6 & F7 & F8).
  constructor; try (split; [reflexivity|]); try assumption; try lia;
    try (split; [first [exact Hta | exact Htl] | lia]);
    try (rewrite ?F4, ?F5, ?F2, ?F1, ?F3, ?Hins, ?Hgrp, ?Hprog; first [exact Hna | exact Hnl | reflexivity]);
    try (split; assumption).
Qed.


Lemma grow_ge v ir : 0 <= v -> 0 <= ir -> v <= v * (ONE + ir) / ONE.
Proof.
  intros Hv Hi. pose proof ONE_pos. apply Z.div_le_lower_bound; [lia|]. nia.
Qed.

Lemma accrue_monotone b pf now b' :
  0 <= b_asv b -> 0 <= b_lsv b -> 0 <= b_tas b -> 0 <= b_tls b ->
  accrue_interest b pf now = Ok b' ->
  b_asv b <= b_asv b' /\ b_lsv b <= b_lsv b' /\
  b_ins b <= b_ins b' /\ b_grp b <= b_grp b' /\ b_prog b <= b_prog b' /\
  (pf_on pf = false -> b_prog b' = b_prog b) /\
  b_tas b' = b_tas b /\ b_tls b' = b_tls b /\ b_last_update b' = now.
Proof.
  intros Ha Hl Hta Htl H. apply accrue_inv in H; try assumption.
  destruct H as [[E ->] | [[Hlt [-> _]] | (dt & A & L & ur & r & irl & irb & F)]].
  - repeat split; try lia.
  - cbn. repeat split; lia.
  - destruct F as [[_ Hdt] [HA _] [HL _] _ Hr [_ Hirl] [_ Hirb] Fa Fl Fi Fg Fp [Ft1 Ft2] Flu].
    pose proof (calc_interest_rate_facts _ _ _ _ Hr) as [R1 R2 R3 R4 R5 R6 R7 _ _].
    pose proof ONE_pos.
    assert (HL0 : 0 <= L) by (subst L; apply amount_nonneg; lia).
    pose proof (grow_ge _ _ Ha Hirl). pose proof (grow_ge _ _ Hl Hirb).
    destruct (pay_bounds L _ dt HL0 R4 ltac:(lia)) as [? _]. destruct (pay_bounds L _ dt HL0 R3 ltac:(lia)) as [? _].
    destruct (pay_bounds L _ dt HL0 R5 ltac:(lia)) as [? _].
    repeat split; try lia.
    intros Hoff. rewrite (R7 Hoff), pay_zero in Fp. lia.
Qed.

Definition wf_bank (b : bank) : Prop := 0 <= b_asv b /\ 0 <= b_lsv b /\ 0 <= b_tas b /\ 0 <= b_tls b.
Definition valid_curve (b : bank) : Prop :=
  cfg_ok (b_ir b) /\ validate_seven_point (b_ir b) = Ok tt /\ ir_curve_type (b_ir b) = INTEREST_CURVE_SEVEN_POINT.

(* D = deposits, L = liabilities (scale 2^96), F = the three fee buckets (scale 2^48) *)
Definition Dv (b : bank) : Z := b_tas b * b_asv b.
Definition Lv (b : bank) : Z := b_tls b * b_lsv b.
Definition Fv (b : bank) : Z := b_ins b + b_grp b + b_prog b.

(* what the borrowers are charged beyond what depositors and fee buckets are credited *)
Definition excess (b b' : bank) : Z := (Lv b' - Lv b) - (Dv b' - Dv b) - (Fv b' - Fv b) * ONE.

(* A real accrual: -(L + total liability shares + ir_lend + 1) < excess <= allowance, where L is the liability
   amount in I80F48 bits and the upper allowance, multiplied by YEAR * ONE so that no division appears, is
     dt * (ONE * (3 L + bor + 3) + A * (base + ONE) + 3 ONE^2) + (A + tas + 3 ONE) * YEAR * ONE,
   i.e. about (dt / YEAR) * (3 L + A * (base rate + 1)) + A + tas raw units at scale 2^96. For a bank with
   10^16 native units on each side, share values 1 and a 100 % base rate the lower allowance is about 71 native
   units and the upper one about 71 + 178 * dt / YEAR native units. *)
Lemma accrue_facts_conserve b pf now b' dt A L ur r irl irb :
  wf_bank b -> 0 <= r_base r -> accrue_facts b pf now b' dt A L ur r irl irb ->
  - (L + b_tls b + irl + 1) < excess b b' /\
  excess b b' * YEAR * ONE
  <= dt * (ONE * (3 * L + r_borrowing r + 3) + A * (r_base r + ONE) + 3 * ONE * ONE)
     + (A + b_tas b + 3 * ONE) * YEAR * ONE.
Proof.
  intros (Ha & Hl & Hta & Htl) Hbase [[_ Hdt] [HA HA0] [HL HL0] Hur Hr [Hirl _] [Hirb _] Fa Fl Fi Fg Fp [Ft1 Ft2] _].
  pose proof (calc_interest_rate_facts _ _ _ _ Hr) as [_ _ R3 R4 R5 R6 _ Rsum _]. pose proof ONE_pos as HO.
  assert (HAp : 0 < A) by (assert (0 <= A) by (rewrite HA; apply amount_nonneg; lia); lia).
  assert (HLp : 0 < L) by (assert (0 <= L) by (rewrite HL; apply amount_nonneg; lia); lia).
  apply cdiv_inv_nonneg in Hur as [Hur _]; try lia.
  pose proof (credit_lt_charge _ _ _ _ _ _ _ _ _ _ _ _ _ _ _ _ _ _ Hta Htl Ha Hl Hbase R3 R4 R5 (Z.lt_le_incl _ _ Hdt)
                HA HAp HL HLp Hur R6 Hirl Hirb Fa Fl Rsum) as C1.
  pose proof (charge_le_credit _ _ _ _ _ _ _ _ _ _ _ _ _ _ _ _ _ _ Hta Htl Ha Hl Hbase R3 R4 R5 (Z.lt_le_incl _ _ Hdt)
                HA HAp HL HLp Hur R6 Hirl Hirb Fa Fl Rsum) as C2.
  assert (E : excess b b' = b_tls b * (b_lsv b' - b_lsv b) - b_tas b * (b_asv b' - b_asv b)
              - (pay L (r_insurance r) dt + pay L (r_group r) dt + pay L (r_protocol r) dt) * ONE).
  { unfold excess, Dv, Lv, Fv. rewrite Ft1, Ft2, Fi, Fg, Fp. ring. }
  rewrite E. split; [lia | exact C2].
Qed.

(* the base rate of a validated seven-point curve *)
Lemma base_rate_range b pf ur r : valid_curve b -> calc_interest_rate (b_ir b) pf ur = Ok r ->
  0 <= r_base r <= Rf (ir_hundred (b_ir b)).
Proof.
  intros (Hc & Hv & Hct) Hr. destruct (curve_defined_bounded (b_ir b) ur Hc Hv) as (base & Hb & Hbb).
  rewrite (rf_seven _ _ _ _ (calc_interest_rate_facts _ _ _ _ Hr) Hct) in Hb. apply Ok_inj in Hb.
  destruct Hc as (Hz & _). pose proof (Rf_range _ Hz). lia.
Qed.

(* a successful accrual either moves no value at all (same time, or an empty side) or is a real one *)
Lemma accrue_split b pf now b' : wf_bank b -> valid_curve b -> accrue_interest b pf now = Ok b' ->
  (b_asv b' = b_asv b /\ excess b b' = 0 /\ Dv b' = Dv b /\ Fv b' = Fv b /\ b_last_update b <= now /\
   ~ (b_last_update b < now /\ b_tas b * b_asv b / ONE <> 0 /\ b_tls b * b_lsv b / ONE <> 0)) \/
  (exists dt A L ur r irl irb, accrue_facts b pf now b' dt A L ur r irl irb /\
                               0 <= r_base r <= Rf (ir_hundred (b_ir b))).
Proof.
  intros (Ha & Hl & Hta & Htl) Hvc H. apply accrue_inv in H; try assumption.
  destruct H as [[E ->] | [[Hlt [-> Hempty]] | (dt & A & L & ur & r & irl & irb & F)]].
  - left. unfold excess. repeat split; lia.
  - left. unfold excess, Dv, Lv, Fv, set_b_last_update. cbn [b_tas b_asv b_tls b_lsv b_ins b_grp b_prog]. repeat split; lia.
  - right. exists dt, A, L, ur, r, irl, irb. split; [exact F|]. exact (base_rate_range _ _ _ _ Hvc (af_rates _ _ _ _ _ _ _ _ _ _ _ F)).
Qed.

Lemma accrue_credit_le_charge b pf now b' :
  wf_bank b -> valid_curve b -> accrue_interest b pf now = Ok b' ->
  exists irl, 0 <= irl /\ ((b' = b /\ irl = 0) \/ b_asv b' = b_asv b * (ONE + irl) / ONE \/ (b_asv b' = b_asv b /\ irl = 0)) /\
  (Dv b' - Dv b) + (Fv b' - Fv b) * ONE <= (Lv b' - Lv b) + (b_tls b * b_lsv b / ONE + b_tls b + irl + 1).
Proof.
  intros Hwf Hvc H. pose proof Hwf as (_ & Hl & _ & Htl). pose proof ONE_pos.
  assert (0 <= b_tls b * b_lsv b / ONE) by (apply amount_nonneg; lia).
  destruct (accrue_split _ _ _ _ Hwf Hvc H) as [(Ea & Ex & _) | (dt & A & L & ur & r & irl & irb & F & Hbase & _)].
  - exists 0. split; [lia|]. split; [right; right; split; [exact Ea | reflexivity]|]. unfold excess in Ex. lia.
  - destruct (accrue_facts_conserve _ _ _ _ _ _ _ _ _ _ _ Hwf Hbase F) as [C _].
    destruct F as [_ _ [HL _] _ _ [_ Hirl0] _ Fa _ _ _ _ _ _]. unfold excess in C. rewrite HL in C.
    exists irl. split; [exact Hirl0|]. split; [right; left; exact Fa | lia].
Qed.

(* accrual touches only share values, fee buckets and last_update *)
Record bank_cfg_same (b b' : bank) : Prop := {
  cs_ir : b_ir b' = b_ir b;  cs_op_state : b_op_state b' = b_op_state b;  cs_flags : b_flags b' = b_flags b;
  cs_dep_limit : b_dep_limit b' = b_dep_limit b;  cs_bor_limit : b_bor_limit b' = b_bor_limit b;
  cs_asset_tag : b_asset_tag b' = b_asset_tag b;  cs_decimals : b_decimals b' = b_decimals b;
  cs_em_rate : b_em_rate b' = b_em_rate b;  cs_em_rem : b_em_rem b' = b_em_rem b;
  cs_lend_cnt : b_lend_cnt b' = b_lend_cnt b;  cs_bor_cnt : b_bor_cnt b' = b_bor_cnt b
}.

Lemma accrue_frame b pf now b' : accrue_interest b pf now = Ok b' -> bank_cfg_same b b'.
Proof.
  intros H. unfold accrue_interest in H.
  apply bind_ok in H as (d & _ & H). apply bind_ok in H as (dt & _ & H).
  destruct (dt =? 0). { apply Ok_inj in H. subst. constructor; reflexivity. }
  apply bind_ok in H as (ta & _ & H). apply bind_ok in H as (tl & _ & H).
  destruct ((ta =? 0) || (tl =? 0)). { apply Ok_inj in H. subst. constructor; reflexivity. }
  apply bind_ok in H as (ch & _ & H). apply bind_ok in H as (dsv & _ & H). apply bind_ok in H as (acc & _ & H).
  set (b2 := set_b_lsv (ac_lsv ch) (set_b_asv (ac_asv ch) (set_b_last_update now b))) in H.
  apply bind_ok in H as (b3 & H3 & H). apply bind_ok in H as (b4 & H4 & H).
  assert (E3 : bank_cfg_same b2 b3).
  { destruct (add_fee_inv _ _ set_b_grp _ _ H3) as [-> | [_ ->]]; constructor; reflexivity. }
  assert (E4 : bank_cfg_same b3 b4).
  { destruct (add_fee_inv _ _ set_b_ins _ _ H4) as [-> | [_ ->]]; constructor; reflexivity. }
  assert (E5 : bank_cfg_same b4 b').
  { destruct (add_fee_inv _ _ set_b_prog _ _ H) as [-> | [_ ->]]; constructor; reflexivity. }
  assert (E2 : bank_cfg_same b b2) by (unfold b2; constructor; reflexivity).
  destruct E2, E3, E4, E5. constructor; congruence.
Qed.
