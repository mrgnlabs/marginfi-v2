(* SolvencyWorld.v — C01 over the handler world: the well-formedness HOk that solvency needs, the rounding allowance of
   one instruction, the two sanctioned exceptions, and their sums over histories.  The theorems about hstep / hrun are in
   HandlerWorld.v, next to the ledger invariant they are proved together with. *)
Require Import Base Constants Fixed Curve Bank BankOps Risk TransferFee Handlers.
Require Import FixedLemmas BankLemmas HandlerLemmas SolvencyLemmas SolvencyHandlers.
From Coq Require Import ZifyBool.
Local Open Scope Z_scope.

Definition HOk (w : hworld) : Prop :=
  pf_ok (hw_pf w) /\
  (forall b hb, nth_bank w b = Ok hb -> hb_ok hb /\ fees_rep (hb_b hb)) /\
  (forall a ac, nth_acct w a = Ok ac -> Forall wf_bal (ha_la ac) /\
      forall b hb, nth_bank w b = Ok hb -> pos_le (hb_b hb) (bank_pk b) (ha_la ac)).

Definition hop_ok (o : hop) : Prop :=
  match o with
  | HDeposit _ _ n _ | HWithdraw _ _ n _ | HBorrow _ _ n | HRepay _ _ n _ | HLiquidate _ _ _ _ n => 0 <= n
  | _ => True
  end.

(* rounding allowance of one instruction for bank b (scale 2^96: divide by 2^96 for native token units) *)
Definition step_slack (w : hworld) (o : hop) (b : nat) (hb : hbank) : Z :=
  match o with
  | HDeposit _ b' _ _ | HCloseBalance _ b' | HAccrue b' | HBankruptcy _ b' => if (b' =? b)%nat then acc_slack w hb else 0
  | HWithdraw _ b' _ _ | HBorrow _ b' _ => if (b' =? b)%nat then acc_slack w hb + sv_slack w hb else 0
  | HRepay _ b' _ all => if (b' =? b)%nat then acc_slack w hb + (if all then ONE else 0) else 0
  | HLiquidate _ _ ab lb _ => if (ab =? b)%nat || (lb =? b)%nat then acc_slack w hb + sv_slack w hb else 0
  | HClock _ | HCollectFees _ | HSetPrice _ _ => 0
  end.

Definition sanctioned (w : hworld) (o : hop) (b : nat) (hb hb' : hbank) : Prop :=
  match o with
  | HRepay _ b' _ all => b' = b /\ tokenless_writeoff w hb all
  | HBankruptcy _ b' => b' = b /\ b_op_state (hb_b hb') = OP_KILLED
  | _ => False
  end.

Lemma HOk_cells w a b hb ac : HOk w -> nth_bank w b = Ok hb -> nth_acct w a = Ok ac ->
  hb_ok hb /\ fees_rep (hb_b hb) /\ Forall wf_bal (ha_la ac) /\ pos_le (hb_b hb) (bank_pk b) (ha_la ac).
Proof.
  intros (_ & Hb & Ha) Eb Ea. destruct (Hb _ _ Eb) as (O & F). destruct (Ha _ _ Ea) as (W & P).
  split; [exact O|]. split; [exact F|]. split; [exact W|exact (P _ _ Eb)].
Qed.

(* an instruction that rewrites bank cell b0 only, with allowance s there: the claim for that cell is the claim for all *)
Lemma cell_gap w o w' b0 hb0 hb0' (s : hbank -> Z) :
  nth_bank w b0 = Ok hb0 -> hw_banks w' = set_nth b0 hb0' (hw_banks w) ->
  (forall b hb, step_slack w o b hb = if (b0 =? b)%nat then s hb else 0) ->
  (gap hb0 - s hb0 <= gap hb0' \/ sanctioned w o b0 hb0 hb0') ->
  forall b hb, nth_bank w b = Ok hb ->
  exists hb', nth_bank w' b = Ok hb' /\ (gap hb - step_slack w o b hb <= gap hb' \/ sanctioned w o b hb hb').
Proof.
  intros E1 E3 Hs G b hb Hb. rewrite Hs. destruct (Nat.eqb_spec b0 b) as [<-|Hne].
  - rewrite Hb in E1. apply Ok_inj in E1. subst hb0. exists hb0'. split; [exact (nth_bank_of_eq _ _ _ _ _ E3 Hb)|exact G].
  - exists hb. split; [rewrite (nth_bank_eq_other _ _ _ _ _ E3 Hne); exact Hb|left; lia].
Qed.

(* histories: failed instructions roll back (hstep_total) *)
Fixpoint run_slack (w : hworld) (ops : list hop) (b : nat) : Z :=
  match ops with
  | [] => 0
  | o :: r =>
      (match hstep w o, nth_bank w b with Ok _, Ok hb => step_slack w o b hb | _, _ => 0 end)
      + run_slack (hstep_total w o) r b
  end.

(* a sanctioned exception (token-less write-off / wipe-out) hit bank b somewhere in the history *)
Fixpoint run_exception (w : hworld) (ops : list hop) (b : nat) : Prop :=
  match ops with
  | [] => False
  | o :: r =>
      (exists w' hb hb', hstep w o = Ok w' /\ nth_bank w b = Ok hb /\ nth_bank w' b = Ok hb' /\ sanctioned w o b hb hb')
      \/ run_exception (hstep_total w o) r b
  end.

Fixpoint run_ok (w : hworld) (ops : list hop) : Prop :=
  HOk w /\ match ops with [] => True | o :: r => hop_ok o /\ run_ok (hstep_total w o) r end.

