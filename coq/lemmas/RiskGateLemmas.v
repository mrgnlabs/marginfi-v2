(* RiskGateLemmas.v — C04: the post-action initial-health gate of lending_account_borrow /
   lending_account_withdraw (handler model Handlers.v, risk engine Risk.v).
   What the gate is: the handlers split into effects / gate / finish; what a passed gate says
   (gate_passed) and that only the gate answers RiskEngineInitRejected (gate_rejected).
   What the engine computes (sum of weighted values, weights, prices, isolated tier) and why
   it is conservative (monotonicity; the rounding bound is in RiskValueLemmas). *)
Require Import Base Constants Fixed Curve Bank BankOps Risk TransferFee Handlers.
Require Import NumLemmas FixedLemmas BankLemmas HandlerLemmas SolvencyLemmas ErrLemmas RiskValueLemmas.
From Coq Require Import ZifyBool Zquot.
Local Open Scope Z_scope.

(* everything lending_account_borrow does before the health check: the world and the (sorted)
   account the check is evaluated on *)
Definition borrow_effects (w : hworld) (a b : nat) (amount : Z) : res (hworld * hacct) :=
  let* hb := nth_bank w b in let* ac := nth_acct w a in
  let bk := hb_b hb in
  let* _ := check (is_marginfi_tag (b_asset_tag bk)) (E E_WrongAssetTagForStandardInstructions) in
  let* _ := check (negb (get_flag (b_flags bk) TOKENLESS_REPAYMENTS_ALLOWED)) (E E_ForbiddenIx) in
  let* _ := check (negb (aflag ac ACCOUNT_DISABLED) && negb (aflag ac ACCOUNT_IN_RECEIVERSHIP)) (E E_AccountDisabled) in
  let* bk1 := accrue_interest bk (hw_pf w) (hw_now w) in
  let* _ := validate_asset_tags bk1 (ha_la ac) in
  let* _ := validate_bank_state bk1 KFailsIfPausedOrReduce in
  let* (i, la1) := wrapper_find_or_create (bank_pk b) bk1 (ha_la ac) (hw_now w) in
  let* bl := nth_res i la1 in
  let* pre := pre_fee hb amount in
  let* (delta, ofee) :=
    if hb_orig_fee hb =? 0 then Ok (of_int pre, 0)
    else let* f := math (cmul (of_int pre) (hb_orig_fee hb)) in
         let* _ := math (to_u64_checked f) in
         let* d := uadd (of_int pre) f in Ok (d, f) in
  let* (bk2, bl2) := decrease_balance bk1 bl (t64 w) delta DecBorrowOnly in
  let w1 := put_hacct (put_hbank w b (set_hb_b bk2 hb)) a (mkHA (set_nth i bl2 la1) (ha_flags ac)) in
  let* w2 := xfer_out w1 a b pre in
  let* hb2 := nth_bank w2 b in
  let bk3 := hb_b hb2 in
  let* bk4 :=
    if ofee =? 0 then Ok bk3 else
    if pf_rate (hw_pf w) =? 0 then Ok (set_b_grp (clamp I128_MIN I128_MAX (b_grp bk3 + ofee)) bk3)
    else
      let* pfa := math (cmul ofee (pf_rate (hw_pf w))) in
      let rest := clamp I128_MIN I128_MAX (ofee - pfa) in
      Ok (set_b_prog (clamp I128_MIN I128_MAX (b_prog bk3 + pfa))
                     (set_b_grp (clamp I128_MIN I128_MAX (b_grp bk3 + rest)) bk3)) in
  let* ac2 := nth_acct w2 a in
  let ac3 := sort_acct ac2 in
  let w3 := put_hacct (put_hbank w2 b (set_hb_b bk4 hb2)) a ac3 in
  Ok (w3, ac3).

(* what follows a passed check: the bank cache refresh (moves Bank.last_update only) *)
Definition borrow_finish (w w3 : hworld) (b : nat) : res hworld :=
  let* hb3 := nth_bank w3 b in
  let* bk5 := update_bank_cache (hb_b hb3) (hw_pf w) (hw_now w) in
  Ok (put_hbank w3 b (set_hb_b bk5 hb3)).

Definition withdraw_effects (w : hworld) (a b : nat) (amount : Z) (all : bool) : res (hworld * hacct) :=
  let* hb := nth_bank w b in let* ac := nth_acct w a in
  let bk := hb_b hb in
  let* _ := check (is_marginfi_tag (b_asset_tag bk)) (E E_WrongAssetTagForStandardInstructions) in
  let* _ := check (negb (aflag ac ACCOUNT_DISABLED)) (E E_AccountDisabled) in
  let* _ := validate_bank_state bk KFailsInPaused in
  let* bk1 := accrue_interest bk (hw_pf w) (hw_now w) in
  let* i := wrapper_find (bank_pk b) (ha_la ac) in
  let* bl := nth_res i (ha_la ac) in
  let* (bk2, bl2, pre) :=
    if all then withdraw_all bk1 bl (t64 w)
    else let* pre := pre_fee hb amount in
         let* (bk2, bl2) := decrease_balance bk1 bl (t64 w) (of_int pre) DecWithdrawOnly in Ok (bk2, bl2, pre) in
  let pre := if get_flag (b_flags bk2) TOKENLESS_REPAYMENTS_COMPLETE then Z.min pre (hb_vault hb) else pre in
  let w1 := put_hacct (put_hbank w b (set_hb_b bk2 hb)) a (mkHA (set_nth i bl2 (ha_la ac)) (ha_flags ac)) in
  let* w2 := xfer_out w1 a b pre in
  let* hb2 := nth_bank w2 b in
  let* bk3 := update_bank_cache (hb_b hb2) (hw_pf w) (hw_now w) in
  let* ac2 := nth_acct w2 a in
  let ac3 := sort_acct ac2 in
  let w3 := put_hacct (put_hbank w2 b (set_hb_b bk3 hb2)) a ac3 in
  Ok (w3, ac3).

(* one step of the proof that a handler is the sequence of its three parts: case analysis on the next
   computation of the handler, which both sides start with *)
Ltac split_step :=
  match goal with
  | |- Err _ = Err _ => reflexivity
  | |- bind ?r _ = _ =>
      let x := fresh "x" in destruct r as [x|?]; cbn [bind]; [ | reflexivity ]
  | |- (let (_, _) := ?p in _) = _ => destruct p
  | |- (if ?c then _ else _) = _ => destruct c; cbn [bind]
  end.

Lemma h_borrow_split w a b n :
  h_borrow w a b n =
  (let* (w3, ac3) := borrow_effects w a b n in
   let* _ := init_health_check w3 ac3 in borrow_finish w w3 b).
Proof.
  unfold h_borrow, borrow_effects, borrow_finish.
  repeat split_step; reflexivity.
Qed.

Lemma h_withdraw_split w a b n all :
  h_withdraw w a b n all =
  (let* (w3, ac3) := withdraw_effects w a b n all in
   let* _ := init_health_check w3 ac3 in Ok w3).
Proof.
  unfold h_withdraw, withdraw_effects.
  repeat split_step; reflexivity.
Qed.

Definition feeds (w : hworld) : list feed := map hb_feed (hw_banks w).

Lemma feeds_put_hbank w b hb hb0 :
  nth_bank w b = Ok hb0 -> hb_feed hb = hb_feed hb0 -> feeds (put_hbank w b hb) = feeds w.
Proof. intros H E. apply nth_res_ok in H. exact (map_set_nth_same hb_feed _ _ _ _ H E). Qed.
Lemma xfer_out_feeds w a b n w' : xfer_out w a b n = Ok w' -> feeds w' = feeds w.
Proof.
  unfold xfer_out. intros H.
  apply bind_ok in H as (hb & Hhb & H). apply bind_ok in H as (u & _ & H).
  apply bind_ok in H as (c & _ & H). apply bind_ok in H as (f & _ & H). apply Ok_inj in H as <-.
  unfold feeds, put_utok. destruct (nth_error _ a); apply (feeds_put_hbank _ _ _ _ Hhb); reflexivity.
Qed.

Lemma sort_acct_flags ac : ha_flags (sort_acct ac) = ha_flags ac.
Proof. reflexivity. Qed.

(* the common end of both effects: bank and position written back, tokens paid out, bank and account
   loaded again, account sorted and stored *)
Lemma effects_end w a b hb ac bk2 la2 pre w2 hb2 bk4 ac2 :
  nth_bank w b = Ok hb -> nth_acct w a = Ok ac ->
  xfer_out (put_hacct (put_hbank w b (set_hb_b bk2 hb)) a (mkHA la2 (ha_flags ac))) a b pre = Ok w2 ->
  nth_bank w2 b = Ok hb2 -> nth_acct w2 a = Ok ac2 ->
  let w3 := put_hacct (put_hbank w2 b (set_hb_b bk4 hb2)) a (sort_acct ac2) in
  nth_acct w3 a = Ok (sort_acct ac2) /\ feeds w3 = feeds w /\
  exists ac0, nth_acct w a = Ok ac0 /\ ha_flags (sort_acct ac2) = ha_flags ac0.
Proof.
  intros Hhb Hac Hx Hhb2 Hac2.
  destruct (xfer_out_effect _ _ _ _ _ _ Hx (put_hbank_get _ _ _ _ Hhb)) as (_ & _ & _ & Hacc).
  pose proof (put_hacct_get (put_hbank w b (set_hb_b bk2 hb)) a (mkHA la2 (ha_flags ac)) ac Hac) as Ha1.
  rewrite Hacc, Ha1 in Hac2. apply Ok_inj in Hac2 as <-.
  split; [|split].
  - eapply put_hacct_get. exact (eq_trans (Hacc a) Ha1).
  - change (feeds (put_hbank w2 b (set_hb_b bk4 hb2)) = feeds w).
    rewrite (feeds_put_hbank _ _ (set_hb_b bk4 hb2) _ Hhb2 eq_refl), (xfer_out_feeds _ _ _ _ _ Hx).
    exact (feeds_put_hbank _ _ (set_hb_b bk2 hb) _ Hhb eq_refl).
  - exists ac. split; [exact Hac | reflexivity].
Qed.

Lemma borrow_effects_facts w a b n w3 ac3 :
  borrow_effects w a b n = Ok (w3, ac3) ->
  nth_acct w3 a = Ok ac3 /\ feeds w3 = feeds w /\
  exists ac0, nth_acct w a = Ok ac0 /\ ha_flags ac3 = ha_flags ac0.
Proof.
  unfold borrow_effects. intros H.
  apply bind_ok in H as (hb & Hhb & H). apply bind_ok in H as (ac & Hac & H).
  apply bind_ok in H as (u1 & _ & H). apply bind_ok in H as (u2 & _ & H). apply bind_ok in H as (u3 & _ & H).
  apply bind_ok in H as (bk1 & _ & H). apply bind_ok in H as (u4 & _ & H). apply bind_ok in H as (u5 & _ & H).
  apply bind_ok in H as ([i la1] & _ & H). apply bind_ok in H as (bl & _ & H).
  apply bind_ok in H as (pre & _ & H). apply bind_ok in H as ([delta ofee] & _ & H).
  apply bind_ok in H as ([bk2 bl2] & _ & H).
  apply bind_ok in H as (w2 & Hx & H). apply bind_ok in H as (hb2 & Hhb2 & H).
  apply bind_ok in H as (bk4 & _ & H). apply bind_ok in H as (ac2 & Hac2 & H).
  apply pair_ok in H as [<- <-]. exact (effects_end _ _ _ _ _ _ _ _ _ _ bk4 _ Hhb Hac Hx Hhb2 Hac2).
Qed.

Lemma withdraw_effects_facts w a b n all w3 ac3 :
  withdraw_effects w a b n all = Ok (w3, ac3) ->
  nth_acct w3 a = Ok ac3 /\ feeds w3 = feeds w /\
  exists ac0, nth_acct w a = Ok ac0 /\ ha_flags ac3 = ha_flags ac0.
Proof.
  unfold withdraw_effects. intros H.
  apply bind_ok in H as (hb & Hhb & H). apply bind_ok in H as (ac & Hac & H).
  apply bind_ok in H as (u1 & _ & H). apply bind_ok in H as (u2 & _ & H). apply bind_ok in H as (u3 & _ & H).
  apply bind_ok in H as (bk1 & _ & H). apply bind_ok in H as (i & _ & H). apply bind_ok in H as (bl & _ & H).
  apply bind_ok in H as ([[bk2 bl2] pre0] & _ & H).
  apply bind_ok in H as (w2 & Hx & H). apply bind_ok in H as (hb2 & Hhb2 & H).
  apply bind_ok in H as (bk3 & _ & H). apply bind_ok in H as (ac2 & Hac2 & H).
  apply pair_ok in H as [<- <-]. exact (effects_end _ _ _ _ _ _ _ _ _ _ bk3 _ Hhb Hac Hx Hhb2 Hac2).
Qed.

Lemma check_init_health_ok ps :
  check_init_health ps = Ok tt <->
  exists A L, health_components ps RqInitial = Ok (A, L) /\ L <= A /\ risk_tiers_ok ps = true.
Proof.
  unfold check_init_health. split.
  - intros H. apply bind_ok in H as ([A L] & Hc & H). apply bind_ok in H as (u & H1 & H).
    apply check_ok in H1. apply check_ok in H. exists A, L. split; [exact Hc|]. split; [lia | exact H].
  - intros (A & L & Hc & HL & Ht). rewrite Hc. cbn [bind]. replace (L <=? A) with true by lia.
    cbn [check bind]. rewrite Ht. reflexivity.
Qed.

Lemma init_health_check_ok w ac :
  init_health_check w ac = Ok tt -> aflag ac ACCOUNT_IN_FLASHLOAN = false ->
  exists ps, positions w (ha_la ac) = Ok ps /\ check_init_health ps = Ok tt.
Proof.
  unfold init_health_check. intros H Hf. rewrite Hf in H.
  apply bind_ok in H as (ps & Hp & H). exists ps. destruct (check_init_health ps) as [[]|]; [auto | discriminate].
Qed.

Lemma aflag_flags ac ac' f : ha_flags ac = ha_flags ac' -> aflag ac f = aflag ac' f.
Proof. unfold aflag. intros ->. reflexivity. Qed.

Lemma gate_passed w ac ac0 :
  init_health_check w ac = Ok tt -> ha_flags ac = ha_flags ac0 -> aflag ac0 ACCOUNT_IN_FLASHLOAN = false ->
  exists ps A L, positions w (ha_la ac) = Ok ps /\ check_init_health ps = Ok tt /\
    health_components ps RqInitial = Ok (A, L) /\ L <= A /\ risk_tiers_ok ps = true.
Proof.
  intros Hg Hflags Hfl. rewrite <- (aflag_flags _ _ _ Hflags) in Hfl.
  destruct (init_health_check_ok _ _ Hg Hfl) as (ps & Hp & Hc).
  destruct (proj1 (check_init_health_ok ps) Hc) as (A & L & HAL). exists ps, A, L. auto.
Qed.

(* the health computation does not read Bank.last_update *)
Definition strip (p : rpos) : rpos :=
  mkPos (ps_bal p) (set_b_last_update 0 (ps_bank p)) (ps_cfg p) (ps_feed p).

Lemma weighted_value_strip p r em : weighted_value (strip p) r em = weighted_value p r em.
Proof. destruct p as [bl bk c f]. reflexivity. Qed.

Lemma health_sum_strip ps : forall r em a l, health_sum (map strip ps) r em a l = health_sum ps r em a l.
Proof.
  induction ps as [|p rest IH]; intros; cbn [map health_sum]; [reflexivity|].
  rewrite weighted_value_strip. destruct (weighted_value p r em) as [[[av lv] c]|]; cbn [bind]; [|reflexivity].
  destruct (math (cadd a av)); cbn [bind]; [|reflexivity].
  destruct (math (cadd l lv)); cbn [bind]; [|reflexivity]. apply IH.
Qed.

Lemma filter_strip (f : rpos -> bool) ps :
  (forall p, f (strip p) = f p) -> filter f (map strip ps) = map strip (filter f ps).
Proof.
  intros Hf. induction ps as [|p rest IH]; cbn [map filter]; [reflexivity|].
  rewrite Hf, IH. destruct (f p); reflexivity.
Qed.

Lemma engine_emode_strip ps : engine_emode (map strip ps) = engine_emode ps.
Proof. unfold engine_emode. rewrite filter_strip, map_map by reflexivity. reflexivity. Qed.

Lemma risk_tiers_strip ps : risk_tiers_ok (map strip ps) = risk_tiers_ok ps.
Proof. unfold risk_tiers_ok. rewrite !filter_strip, !map_length by reflexivity. reflexivity. Qed.

Lemma health_components_strip ps r : health_components (map strip ps) r = health_components ps r.
Proof. unfold health_components. rewrite engine_emode_strip, health_sum_strip. reflexivity. Qed.

Lemma check_init_health_strip ps : check_init_health (map strip ps) = check_init_health ps.
Proof. unfold check_init_health. rewrite health_components_strip, risk_tiers_strip. reflexivity. Qed.

Lemma mapM_map_eq {A B C} (h : B -> C) (f g : A -> res B) l :
  (forall x y, f x = Ok y -> exists y', g x = Ok y' /\ h y' = h y) ->
  forall ys, mapM f l = Ok ys -> exists ys', mapM g l = Ok ys' /\ map h ys' = map h ys.
Proof.
  intros Hfg. induction l as [|x r IH]; intros ys H; cbn [mapM] in *.
  - apply Ok_inj in H as <-. exists []. split; reflexivity.
  - apply bind_ok in H as (y & Hy & H). apply bind_ok in H as (ys0 & Hys & H). apply Ok_inj in H as <-.
    destruct (Hfg _ _ Hy) as (y' & -> & Ey). destruct (IH _ Hys) as (ys' & -> & Eys).
    exists (y' :: ys'). cbn [bind map]. rewrite Ey, Eys. split; reflexivity.
Qed.

Lemma positions_refresh w b hb3 pf now bk5 la ps :
  nth_bank w b = Ok hb3 -> update_bank_cache (hb_b hb3) pf now = Ok bk5 -> positions w la = Ok ps ->
  exists ps', positions (put_hbank w b (set_hb_b bk5 hb3)) la = Ok ps' /\ map strip ps' = map strip ps.
Proof.
  intros Hb Hk. apply mapM_map_eq. intros bl p H. apply bind_ok in H as (hb & Hhb & H). apply Ok_inj in H as <-.
  apply nth_res_ok in Hhb. apply nth_res_ok in Hb. unfold put_hbank, nth_res. cbn [hw_banks].
  destruct (Nat.eq_dec b (Z.to_nat (bl_bank bl - 1))) as [E|Hne].
  - rewrite <- E in *. rewrite (nth_set_nth_same _ _ _ _ Hb). rewrite Hb in Hhb. injection Hhb as <-.
    eexists. split; [reflexivity|]. apply update_bank_cache_core in Hk as [-> | ->]; reflexivity.
  - rewrite nth_set_nth_other, Hhb by assumption. eexists. split; reflexivity.
Qed.

Lemma borrow_finish_keeps w w3 b w' a ac :
  borrow_finish w w3 b = Ok w' -> init_health_check w3 ac = Ok tt ->
  nth_acct w' a = nth_acct w3 a /\ init_health_check w' ac = Ok tt.
Proof.
  unfold borrow_finish, init_health_check. intros H Hg.
  apply bind_ok in H as (hb3 & Hhb3 & H). apply bind_ok in H as (bk5 & Hk & H). apply Ok_inj in H as <-.
  split; [reflexivity|]. destruct (aflag ac ACCOUNT_IN_FLASHLOAN); [reflexivity|].
  apply bind_ok in Hg as (ps & Hp & Hg).
  destruct (positions_refresh _ _ _ _ _ _ _ _ Hhb3 Hk Hp) as (ps' & -> & Hs).
  cbn [bind]. rewrite <- check_init_health_strip, Hs, check_init_health_strip. exact Hg.
Qed.

(* the oracle adapter's own errors are oracle errors, never the risk engine's verdict *)
Definition feed_ng (f : feed) : Prop :=
  ng (fd_load f) /\ ng (fd_low_rt f) /\ ng (fd_high_rt f) /\ ng (fd_low_tw f) /\ ng (fd_high_tw f).
Definition feeds_ng (w : hworld) : Prop := Forall feed_ng (feeds w).

Lemma raises_calc_value a p d w : raises (among [E_MathError]) (calc_value a p d w).
Proof. unfold calc_value. raises_auto. Qed.
#[export] Hint Resolve raises_calc_value : raises_db.
Lemma raises_init_discount b c p : raises (among [E_MathError]) (init_discount b c p).
Proof. unfold init_discount. raises_auto. Qed.
#[export] Hint Resolve raises_init_discount : raises_db.
Lemma ng_calc_value a p d w : ng (calc_value a p d w).
Proof. exact (among_ng _ _ (raises_calc_value a p d w) eq_refl). Qed.
Lemma ng_init_discount b c p : ng (init_discount b c p).
Proof. exact (among_ng _ _ (raises_init_discount b c p) eq_refl). Qed.

(* an unusable oracle is passed on as it is (or swallowed, for collateral under the initial requirement) *)
Lemma ng_weighted_value p r em : feed_ng (ps_feed p) -> ng (weighted_value p r em).
Proof.
  intros (Hl & Hlr & Hhr & Hlt & Hht). apply ng_raises in Hl. apply ng_raises.
  unfold weighted_value, weighted_liab_value, weighted_asset_value, price_low, price_high.
  destruct (fd_load (ps_feed p)) as [u|e]; [|assert (He : allows (other_than E_RiskEngineInitRejected) e) by exact (Hl e eq_refl)];
    raises_auto.
Qed.
Lemma ng_health_sum ps : Forall (fun p => feed_ng (ps_feed p)) ps -> forall r em a l, ng (health_sum ps r em a l).
Proof.
  induction 1 as [|p rest Hp _ IH]; intros; apply ng_raises; cbn [health_sum]; [raises_auto|].
  pose proof (ng_weighted_value p r em Hp). raises_auto.
Qed.

Lemma simple_mapM {A B} (f : A -> res B) l : (forall x, simple (f x)) -> simple (mapM f l).
Proof. intros Hf. induction l as [|x r IH]; cbn [mapM]; simple_auto. Qed.
Lemma simple_positions w la : simple (positions w la).
Proof. apply simple_mapM. intros bl. simple_auto. Qed.

Lemma mapM_Forall {A B} (P : B -> Prop) (f : A -> res B) l :
  (forall x y, f x = Ok y -> P y) -> forall ys, mapM f l = Ok ys -> Forall P ys.
Proof.
  intros Hf. induction l as [|x r IH]; intros ys H; cbn [mapM] in H.
  - apply Ok_inj in H as <-. constructor.
  - apply bind_ok in H as (y & Hy & H). apply bind_ok in H as (ys0 & Hys & H). apply Ok_inj in H as <-.
    constructor; [exact (Hf _ _ Hy) | exact (IH _ Hys)].
Qed.

Lemma positions_feeds w la ps : feeds_ng w -> positions w la = Ok ps -> Forall (fun p => feed_ng (ps_feed p)) ps.
Proof.
  intros Hw. apply mapM_Forall. intros bl p H.
  apply bind_ok in H as (hb & Hhb & H). apply Ok_inj in H as <-.
  apply nth_res_ok, nth_error_In in Hhb. exact (proj1 (Forall_forall _ _) Hw _ (in_map hb_feed _ _ Hhb)).
Qed.

Lemma check_init_health_rejected ps :
  Forall (fun p => feed_ng (ps_feed p)) ps ->
  check_init_health ps = Err (E E_RiskEngineInitRejected) ->
  exists A L, health_components ps RqInitial = Ok (A, L) /\ A < L.
Proof.
  intros Hf H. unfold check_init_health in H.
  apply bind_err_inv in H as [H | ([A L] & Hc & H)]; [destruct (ng_health_sum _ Hf _ _ _ _ H)|].
  exists A, L. split; [exact Hc|].
  apply bind_err_inv in H as [H | (u & _ & H)]; [|destruct (risk_tiers_ok ps); discriminate].
  destruct (Z.leb_spec L A); [discriminate | assumption].
Qed.

Lemma init_health_check_rejected w ac :
  feeds_ng w -> init_health_check w ac = Err (E E_RiskEngineInitRejected) ->
  aflag ac ACCOUNT_IN_FLASHLOAN = false /\
  exists ps A L, positions w (ha_la ac) = Ok ps /\ health_components ps RqInitial = Ok (A, L) /\ A < L.
Proof.
  intros Hw H. unfold init_health_check in H.
  destruct (aflag ac ACCOUNT_IN_FLASHLOAN); [discriminate|]. split; [reflexivity|].
  apply bind_err_inv in H as [H | (ps & Hp & H)]; [destruct (simple_positions _ _ _ H)|].
  destruct (check_init_health_rejected ps (positions_feeds _ _ _ Hw Hp) H) as (A & L & Hc).
  exists ps, A, L. split; assumption.
Qed.

Lemma gate_rejected {T} (eff : res (hworld * hacct)) (fin : hworld -> res T) w :
  feeds_ng w -> ng eff -> (forall w3, ng (fin w3)) ->
  (forall w3 ac3, eff = Ok (w3, ac3) -> feeds w3 = feeds w) ->
  (let* (w3, ac3) := eff in let* _ := init_health_check w3 ac3 in fin w3) = Err (E E_RiskEngineInitRejected) ->
  exists w3 ac3 ps A L, eff = Ok (w3, ac3) /\
    aflag ac3 ACCOUNT_IN_FLASHLOAN = false /\ positions w3 (ha_la ac3) = Ok ps /\
    health_components ps RqInitial = Ok (A, L) /\ A < L.
Proof.
  intros Hw Heff Hfin Hfeeds H.
  apply bind_err_inv in H as [H | ([w3 ac3] & He & H)]; [destruct (Heff H)|].
  apply bind_err_inv in H as [H | (u & _ & H)]; [|destruct (Hfin _ H)].
  unfold feeds_ng in Hw. rewrite <- (Hfeeds _ _ He) in Hw.
  destruct (init_health_check_rejected _ _ Hw H) as (Hfl & ps & A & L & Hc).
  exists w3, ac3, ps, A, L. split; [exact He | split; assumption].
Qed.

Lemma ng_borrow_effects w a b n : ng (borrow_effects w a b n).
Proof. apply ng_raises. unfold borrow_effects. raises_auto. Qed.
Lemma ng_withdraw_effects w a b n all : ng (withdraw_effects w a b n all).
Proof. apply ng_raises. unfold withdraw_effects. raises_auto. Qed.
Lemma ng_borrow_finish w w3 b : ng (borrow_finish w w3 b).
Proof. apply ng_raises. unfold borrow_finish. raises_auto. Qed.

(* a liability counts when the position holds at least 1.0 liability shares (Balance::is_empty
   compares shares with EMPTY_BALANCE_THRESHOLD = 1) *)
Lemma liab_nonempty_iff bl : liab_nonempty bl = true <-> 1 * 2^48 <= bl_l bl.
Proof. unfold liab_nonempty. change EMPTY_BALANCE_THRESHOLD with (1 * 2^48). lia. Qed.
Lemma asset_nonempty_iff bl : asset_nonempty bl = true <-> 1 * 2^48 <= bl_a bl.
Proof. unfold asset_nonempty. change EMPTY_BALANCE_THRESHOLD with (1 * 2^48). lia. Qed.

Definition liabs_of (ps : list rpos) : list rpos := filter (fun p => liab_nonempty (ps_bal p)) ps.

Lemma length_zero_filter {A} (f : A -> bool) l : length (filter f l) = 0%nat -> forall x, In x l -> f x = false.
Proof.
  induction l as [|y r IH]; cbn [filter]; intros H x Hx; [destruct Hx|].
  destruct (f y) eqn:E; [discriminate|]. destruct Hx as [<-|Hx]; [exact E | apply IH; assumption].
Qed.

Fixpoint zsum (l : list Z) : Z := match l with [] => 0 | x :: r => x + zsum r end.

Theorem health_sum_is_sum ps : forall r em a l A L,
  health_sum ps r em a l = Ok (A, L) ->
  exists vs : list (fx * fx * Z),
    Forall2 (fun p v => weighted_value p r em = Ok v) ps vs /\
    A = a + zsum (map (fun v => fst (fst v)) vs) /\ L = l + zsum (map (fun v => snd (fst v)) vs).
Proof.
  induction ps as [|p rest IH]; intros r em a l A L H; cbn [health_sum] in H.
  - apply pair_ok in H as [<- <-]. exists []. split; [constructor|]. cbn. lia.
  - apply bind_ok in H as ([[av lv] c] & Hv & H).
    apply bind_ok in H as (a' & Ha & H). apply math_ok, cadd_inv in Ha as [-> _].
    apply bind_ok in H as (l' & Hl & H). apply math_ok, cadd_inv in Hl as [-> _].
    destruct (IH _ _ _ _ _ _ H) as (vs & HF & -> & ->).
    exists ((av, lv, c) :: vs). split; [constructor; assumption|]. cbn [map zsum fst snd]. lia.
Qed.

(* liabilities: liability amount x liability weight of the requirement x HIGH-biased price
   (time-weighted for the initial requirement), an unusable oracle is an error *)
Theorem weighted_liab_value_spec p r v hp :
  weighted_liab_value p r = Ok (v, hp) ->
  fd_load (ps_feed p) = Ok tt /\ price_high (ps_feed p) r = Ok hp /\
  exists amt, get_liability_amount (ps_bank p) (bl_l (ps_bal p)) = Ok amt /\
    calc_value amt hp (balance_decimals (ps_bank p)) (Some (get_weight (ps_cfg p) r SLiabs)) = Ok v.
Proof.
  unfold weighted_liab_value. intros H.
  apply bind_ok in H as ([] & Hu & H). apply bind_ok in H as (hp' & Hhp & H).
  apply bind_ok in H as (amt & Ha & H). apply bind_ok in H as (v' & Hv & H). apply pair_ok in H as [<- <-].
  repeat split; try assumption. exists amt. split; assumption.
Qed.
Lemma price_high_initial f : price_high f RqInitial = fd_high_tw f. Proof. reflexivity. Qed.
Lemma price_low_initial f : price_low f RqInitial = fd_low_tw f. Proof. reflexivity. Qed.
Lemma price_high_maint f : price_high f RqMaint = fd_high_rt f. Proof. reflexivity. Qed.
Lemma price_low_maint f : price_low f RqMaint = fd_low_rt f. Proof. reflexivity. Qed.
Lemma weight_initial c : get_weight c RqInitial SAssets = rc_awi c /\ get_weight c RqInitial SLiabs = rc_lwi c.
Proof. split; reflexivity. Qed.
Lemma weight_maint c : get_weight c RqMaint SAssets = rc_awm c /\ get_weight c RqMaint SLiabs = rc_lwm c.
Proof. split; reflexivity. Qed.

(* the asset weight for the initial requirement: the larger of the bank's own init weight and the
   reconciled e-mode init weight for the bank's tag (if any), times the init-limit discount (if any) *)
Definition asset_weight_init (p : rpos) (em : list rentry) (lp : fx) : res fx :=
  let c := ps_cfg p in
  let w0 := match find_with_tag em (rc_emode_tag c) with
            | Some e => Z.max (rc_awi c) (re_wi e)
            | None => rc_awi c end in
  let* d := init_discount (ps_bank p) c lp in
  match d with Some d => math (cmul w0 d) | None => Ok w0 end.

(* monotone in (amount x weight, rounded) x price *)
Theorem calc_value_mono a a' w w' p p' d v v' :
  a * w / ONE * p <= a' * w' / ONE * p' ->
  calc_value a p d (Some w) = Ok v -> calc_value a' p' d (Some w') = Ok v' -> v <= v'.
Proof.
  intros Hle H H'. apply calc_value_inv in H as [-> _]. apply calc_value_inv in H' as [-> _].
  pose proof ONE_pos as HO. destruct (Z.lt_ge_cases d 0) as [Hd|Hd].
  - rewrite Z.pow_neg_r by exact Hd. cbn [Z.mul]. rewrite !Zquot_0_r. reflexivity.
  - pose proof (pow10_pos d Hd). apply Z.quot_le_mono; [nia|].
    apply Z.mul_le_mono_nonneg_r; [lia|]. apply Z.div_le_mono; [lia | exact Hle].
Qed.

Corollary calc_value_mono_amount a a' p d w v v' :
  0 <= a <= a' -> 0 <= p -> 0 <= w ->
  calc_value a p d (Some w) = Ok v -> calc_value a' p d (Some w) = Ok v' -> v <= v'.
Proof.
  intros Ha Hp Hw. apply calc_value_mono. apply Z.mul_le_mono_nonneg_r; [exact Hp|].
  apply Z.div_le_mono; [apply ONE_pos | nia].
Qed.

(* the gate is conservative: when the feed's low price is at most its high price, a collateral
   position is valued no higher than the same amount and weight at the high price *)
Corollary low_bias_is_conservative a lo hi d w v v' :
  0 <= a -> 0 <= w -> lo <= hi ->
  calc_value a lo d (Some w) = Ok v -> calc_value a hi d (Some w) = Ok v' -> v <= v'.
Proof.
  intros Ha Hw Hp. apply calc_value_mono. apply Z.mul_le_mono_nonneg_l; [|exact Hp].
  apply Z.div_pos; [nia | apply ONE_pos].
Qed.
