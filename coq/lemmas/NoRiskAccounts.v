(* NoRiskAccounts.v — C04 for a borrow / withdrawal sent WITHOUT its risk (bank / oracle) accounts: success means the
   engine's verdict on an empty account list was Ok, which happens only inside a flash loan or when the account is left
   without any active balance. *)
Require Import Base Constants Fixed Curve Bank BankOps Risk TransferFee Handlers.
Require Import FixedLemmas HandlerLemmas StructLemmas HandlerEffects.
From Coq Require Import Sorting.Permutation.
Local Open Scope Z_scope.

Lemma norem_check_inv ac :
  init_health_check_norem ac = Ok tt ->
  aflag ac ACCOUNT_IN_FLASHLOAN = true \/ existsb bl_active (ha_la ac) = false.
Proof.
  unfold init_health_check_norem. destruct (aflag ac ACCOUNT_IN_FLASHLOAN); [auto|].
  destruct (existsb bl_active (ha_la ac)); [discriminate | auto].
Qed.

(* a successful h_borrow_norem: the slot of bank b was found or created and decreased, the account sorted, written and
   handed to the engine *)
Lemma borrow_norem_inv w a b n w' :
  h_borrow_norem w a b n = Ok w' ->
  exists ac bk1 i la1 bl delta bk2 bl2,
    nth_acct w a = Ok ac /\
    wrapper_find_or_create (bank_pk b) bk1 (ha_la ac) (hw_now w) = Ok (i, la1) /\ nth_res i la1 = Ok bl /\
    decrease_balance bk1 bl (t64 w) delta DecBorrowOnly = Ok (bk2, bl2) /\
    let ac3 := sort_acct (mkHA (set_nth i bl2 la1) (ha_flags ac)) in
    nth_acct w' a = Ok ac3 /\ init_health_check_norem ac3 = Ok tt.
Proof.
  unfold h_borrow_norem. intros H.
  apply bind_ok in H as (hb & Hhb & H). apply bind_ok in H as (ac & Hac & H).
  do 3 (apply bind_ok in H as (? & _ & H)). apply bind_ok in H as (bk1 & _ & H). do 2 (apply bind_ok in H as (? & _ & H)).
  apply bind_ok in H as ([i la1] & Hfoc & H). apply bind_ok in H as (bl & Hbl & H). apply bind_ok in H as (pre & _ & H).
  apply bind_ok in H as ([delta ofee] & _ & H). apply bind_ok in H as ([bk2 bl2] & Hdec & H).
  set (ac1 := mkHA (set_nth i bl2 la1) (ha_flags ac)) in H.
  apply bind_ok in H as (w2 & Hx & H). do 2 (apply bind_ok in H as (? & _ & H)).
  apply bind_ok in H as (ac2 & Hac2 & H). apply bind_ok in H as ([] & Hchk & H).
  do 2 (apply bind_ok in H as (? & _ & H)). apply Ok_inj in H. subst w'.
  (* the token transfer leaves the accounts alone: the account read back is the one just written *)
  destruct (xfer_out_inv _ _ _ _ _ _ Hx (put_hbank_get _ _ _ _ Hhb)) as (_ & u & Ew2).
  pose proof (nth_acct_of_eq _ w2 a ac1 ac (f_equal hw_accts Ew2) Hac) as Hw2. rewrite Hw2 in Hac2. apply Ok_inj in Hac2. subst ac2.
  exists ac, bk1, i, la1, bl, delta, bk2, bl2. repeat (split; [assumption|]). split; [|exact Hchk].
  rewrite nth_acct_put_hbank. apply (put_hacct_get _ _ _ ac1). rewrite nth_acct_put_hbank. exact Hw2.
Qed.

Theorem borrow_norem_verdict w a b n w' :
  h_borrow_norem w a b n = Ok w' ->
  exists ac3, nth_acct w' a = Ok ac3 /\ init_health_check_norem ac3 = Ok tt.
Proof. intros H. apply borrow_norem_inv in H as (ac & bk1 & i & la1 & bl & delta & bk2 & bl2 & _ & _ & _ & _ & H). eauto. Qed.

Theorem withdraw_norem_verdict w a b n all w' :
  h_withdraw_norem w a b n all = Ok w' ->
  exists ac3, nth_acct w' a = Ok ac3 /\ init_health_check_norem ac3 = Ok tt.
Proof.
  unfold h_withdraw_norem. intros H.
  apply bind_ok in H as (hb & Hhb & H). apply bind_ok in H as (ac & Hac & H).
  do 6 (apply bind_ok in H as (? & _ & H)). apply bind_ok in H as ([[bk2 bl2] pre] & _ & H).
  do 3 (apply bind_ok in H as (? & _ & H)).
  apply bind_ok in H as (ac2 & Hac2 & H). apply bind_ok in H as ([] & Hchk & H). apply Ok_inj in H. subst w'.
  exists (sort_acct ac2). split; [|exact Hchk].
  apply (put_hacct_get _ _ _ ac2). rewrite nth_acct_put_hbank. exact Hac2.
Qed.

Corollary borrow_norem_only_flashloan_or_empty w a b n w' :
  h_borrow_norem w a b n = Ok w' ->
  exists ac3, nth_acct w' a = Ok ac3 /\
    (aflag ac3 ACCOUNT_IN_FLASHLOAN = true \/ existsb bl_active (ha_la ac3) = false).
Proof. intros H. destruct (borrow_norem_verdict _ _ _ _ _ H) as (ac3 & H1 & H2). exists ac3. split; [exact H1 | apply norem_check_inv; exact H2]. Qed.

Corollary withdraw_norem_only_flashloan_or_empty w a b n all w' :
  h_withdraw_norem w a b n all = Ok w' ->
  exists ac3, nth_acct w' a = Ok ac3 /\
    (aflag ac3 ACCOUNT_IN_FLASHLOAN = true \/ existsb bl_active (ha_la ac3) = false).
Proof. intros H. destruct (withdraw_norem_verdict _ _ _ _ _ _ H) as (ac3 & H1 & H2). exists ac3. split; [exact H1 | apply norem_check_inv; exact H2]. Qed.

(* a classic liquidation sent without anybody's risk accounts never succeeds: either the liquidatee has an active balance
   (the engine cannot load it) or it has none (then it has no debt in the liability bank either) *)
Theorem liquidate_norem_never_succeeds w r e ab lb n w' : h_liquidate_norem w r e ab lb n = Ok w' -> False.
Proof.
  intros H. destruct (liquidate_gen_inv positions_norem _ _ _ _ _ _ _ (fun _ _ _ _ => eq_refl) H)
    as (ha & hl & ee & er & ba1 & bl1 & ps & ps1 & h0 & A0 & L0 & h1 & ap & lp & v1 & v2 & q_liq & q_fin & i1 & i2 & i3 & i4 & la1 & la3 &
        b1 & b1' & b2 & b2' & b3 & b3' & b4 & b4' & bl2 & ba2 & ba3 & bl3 & ee3 & er3 & ha' & hl' & f & ins_n & ba4 & bl5 & R).
  destruct R as [_ _ _ _ _ _ (Hps & Hpre) _ _ _ _ _ _ _ _ _ _ _ _ _ _ _].
  unfold positions_norem in Hps. destruct (existsb bl_active (sort_balances (ha_la ee))); [discriminate|].
  apply Ok_inj in Hps. subst ps. unfold pre_liquidation in Hpre. cbn in Hpre. discriminate.
Qed.

(* stronger for the borrow: it always leaves an active balance (the one borrowed from), so without risk accounts it can
   succeed only inside a flash loan *)
Theorem borrow_norem_only_in_flashloan w a b n w' :
  h_borrow_norem w a b n = Ok w' ->
  exists ac, nth_acct w a = Ok ac /\ aflag ac ACCOUNT_IN_FLASHLOAN = true.
Proof.
  intros H. apply borrow_norem_inv in H as (ac & bk1 & i & la1 & bl & delta & bk2 & bl2 & Hac & Hfoc & Hbl & Hdec & _ & Hchk).
  exists ac. split; [exact Hac|]. apply norem_check_inv in Hchk as [Hfl | Hnone]; [exact Hfl | exfalso].
  destruct (foc_slot _ _ _ _ _ _ Hfoc) as (bl0 & Hn & Hact & _).
  apply nth_res_ok in Hbl. rewrite Hn in Hbl. injection Hbl as <-.
  destruct (decrease_balance_id _ _ _ _ _ _ _ Hdec) as [(Ha2 & _ & _) _].
  (* the slot just borrowed from is still active, and sorting keeps it *)
  assert (E : existsb bl_active (sort_balances (set_nth i bl2 la1)) = true); [|cbn [sort_acct ha_la] in Hnone; congruence].
  apply existsb_exists. exists bl2. split; [|congruence].
  apply (Permutation_in _ (Permutation_sym (sort_perm _))). eapply nth_error_In, nth_set_nth_same, Hn.
Qed.
