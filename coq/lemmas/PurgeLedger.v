(* PurgeLedger.v — C02 for lending_account_purge_delev_balance: the purged position's asset shares leave the
   bank total exactly, at most ZERO_AMOUNT_THRESHOLD liability shares are abandoned in the total, and the
   instruction-level ledger invariant is preserved. *)
Require Import Base Constants PrivGen Fixed Curve Bank BankOps Risk TransferFee Handlers Deleverage.
Require Import FixedLemmas BankLemmas AccrualLemmas HandlerLemmas SolvencyLemmas LedgerLemmas HandlerEffects HandlerWorld.
From Coq Require Import ZifyBool.
Local Open Scope Z_scope.

Definition purged (bk : bank) (bl : balance) : bank := set_b_tas (b_tas bk - bl_a bl) (dec_lend bk).

Lemma purge_facts w a b signs w' :
  dv_purge w a b signs = Ok w' ->
  exists hb ac i bl,
    signs = true /\
    eff1 w w' a b hb (set_hb_b (purged (hb_b hb) bl) hb) ac (mkHA (sort_balances (set_nth i bal_empty (ha_la ac))) (ha_flags ac)) /\
    get_flag (b_flags (hb_b hb)) TOKENLESS_REPAYMENTS_COMPLETE = true /\
    find_active (bank_pk b) (ha_la ac) = Some i /\ nth_res i (ha_la ac) = Ok bl /\
    fabs_w (bl_l bl) <= ZERO_AMOUNT_THRESHOLD.
Proof.
  unfold dv_purge. intros H.
  apply bind_ok in H as (u0 & Hs & H). apply bind_ok in H as (hb & Hhb & H). apply bind_ok in H as (ac & Hac & H).
  apply bind_ok in H as (u1 & _ & H). apply bind_ok in H as (u2 & Hfl & H).
  apply bind_ok in H as (i & Hi & H). apply bind_ok in H as (bl & Hbl & H). apply bind_ok in H as (u3 & Hth & H).
  apply bind_ok in H as (neg & Hneg & H). apply bind_ok in H as (bk2 & Hch & H). apply Ok_inj in H. subst w'.
  apply check_ok in Hs, Hfl, Hth. apply chk_inv in Hneg as [-> _]. apply change_asset_shares_inv in Hch as ->.
  exists hb, ac, i, bl. split; [exact Hs|]. split.
  { unfold eff1, put_hacct, put_hbank. cbn [hw_banks hw_accts hw_now hw_pf hw_risk_admin_signs].
    repeat split; try assumption; reflexivity. }
  split; [exact Hfl|].
  split; [destruct (find_active (bank_pk b) (ha_la ac)); [apply Ok_inj in Hi as ->; reflexivity | discriminate]|].
  split; [exact Hbl|lia].
Qed.

Lemma purge_wf w a b hb ac i bl :
  HLedger w -> nth_bank w b = Ok hb -> nth_acct w a = Ok ac -> nth_res i (ha_la ac) = Ok bl ->
  wf_sv (hb_b hb) /\ Forall wf_bal (ha_la ac) /\ wf_bal bl.
Proof.
  intros L Hb Ha Hbl.
  pose proof (nth_res_Forall _ _ _ _ (nth_res_map hb_b _ _ _ Hb) (lg_sv _ L)) as Hsv.
  pose proof (nth_res_Forall _ _ _ _ (nth_res_map ha_la _ _ _ Ha) (lg_wf _ L)) as Hw.
  split; [exact Hsv|]. split; [exact Hw|exact (nth_res_Forall _ _ _ _ Hbl Hw)].
Qed.

Theorem purge_keeps_ledger w a b signs w' :
  HLedger w -> dv_purge w a b signs = Ok w' -> HLedger w'.
Proof.
  intros L H. destruct (purge_facts _ _ _ _ _ H) as (hb & ac & i & bl & _ & E & _ & Hfind & Hbl & _).
  destruct (purge_wf _ _ _ _ _ _ _ L (proj1 E) (proj1 (proj2 E)) Hbl) as (Hsv & Hwla & Hwbl).
  assert (Hi : wrapper_find (bank_pk b) (ha_la ac) = Ok i) by (unfold wrapper_find; rewrite Hfind; reflexivity).
  destruct (slot_located _ _ _ _ _ (located_find _ _ _ Hi) Hbl Hwla) as (Hact & Hbank & _).
  eapply (eff1_ledger w w' a b hb _ ac _ i bl bal_empty _ _ L E Hi Hbl); [|reflexivity].
  apply (slot_ok_closed (bank_pk b) (hb_b hb) bl (purged (hb_b hb) bl) Hact Hbank Hsv Hwbl); destruct Hwbl; cbn; lia.
Qed.

Theorem purge_effect_on_totals w a b signs w' :
  HLedger w -> dv_purge w a b signs = Ok w' ->
  exists hb hb' ac i bl,
    nth_bank w b = Ok hb /\ nth_bank w' b = Ok hb' /\ nth_acct w a = Ok ac /\
    find_active (bank_pk b) (ha_la ac) = Some i /\ nth_res i (ha_la ac) = Ok bl /\
    b_tas (hb_b hb') = b_tas (hb_b hb) - bl_a bl /\ b_tls (hb_b hb') = b_tls (hb_b hb) /\
    0 <= bl_l bl /\ (bl_l bl <= I128_MAX -> bl_l bl <= ZERO_AMOUNT_THRESHOLD) /\
    b_asv (hb_b hb') = b_asv (hb_b hb) /\ b_lsv (hb_b hb') = b_lsv (hb_b hb) /\ hb_vault hb' = hb_vault hb.
Proof.
  intros L H. destruct (purge_facts _ _ _ _ _ H) as (hb & ac & i & bl & _ & E & _ & Hfind & Hbl & Hth).
  destruct (eff1_banks _ _ _ _ _ _ _ _ E) as (B1 & B2 & _).
  destruct (purge_wf _ _ _ _ _ _ _ L B1 (proj1 (proj2 E)) Hbl) as (_ & _ & (_ & Hl0)).
  exists hb, (set_hb_b (purged (hb_b hb) bl) hb), ac, i, bl.
  split; [exact B1|]. split; [exact B2|]. split; [exact (proj1 (proj2 E))|]. split; [exact Hfind|]. split; [exact Hbl|].
  split; [reflexivity|]. split; [reflexivity|]. split; [exact Hl0|]. split; [|repeat split; reflexivity].
  intros Hmax. unfold fabs_w in Hth. rewrite Z.abs_eq, wrap128_id in Hth by (rewrite ?I128_MIN_val; lia). exact Hth.
Qed.

(* C01 for the purge: no token moves and the bank's obligations shrink by the purged deposits, so the solvency gap of the
   bank grows by exactly (purged asset shares) x (asset share value); every other bank is untouched *)
Theorem purge_gap w a b signs w' :
  HLedger w -> dv_purge w a b signs = Ok w' ->
  exists hb hb' ac i bl,
    nth_bank w b = Ok hb /\ nth_bank w' b = Ok hb' /\ nth_acct w a = Ok ac /\ nth_res i (ha_la ac) = Ok bl /\
    gap hb' = gap hb + bl_a bl * b_asv (hb_b hb) /\ gap hb <= gap hb' /\
    (forall k, k <> b -> nth_bank w' k = nth_bank w k).
Proof.
  intros L H. destruct (purge_facts _ _ _ _ _ H) as (hb & ac & i & bl & _ & E & _ & _ & Hbl & _).
  destruct (eff1_banks _ _ _ _ _ _ _ _ E) as (B1 & B2 & B3).
  destruct (purge_wf _ _ _ _ _ _ _ L B1 (proj1 (proj2 E)) Hbl) as ((Hasv & _) & _ & (Hba & _)).
  exists hb, (set_hb_b (purged (hb_b hb) bl) hb), ac, i, bl.
  split; [exact B1|]. split; [exact B2|]. split; [exact (proj1 (proj2 E))|]. split; [exact Hbl|].
  assert (G : gap (set_hb_b (purged (hb_b hb) bl) hb) = gap hb + bl_a bl * b_asv (hb_b hb))
    by (unfold gap, gapb, NAV, Dv, Lv, Fv, purged, dec_lend;
        cbn [hb_b hb_vault set_hb_b set_b_tas set_b_lend_cnt b_tas b_tls b_asv b_lsv b_ins b_grp b_prog]; ring).
  split; [exact G|]. split; [rewrite G; nia|exact B3].
Qed.
