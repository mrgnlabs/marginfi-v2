(* TxLemmas.v — proofs about the introspection validators of model/Tx.v (pure list theorems, any
   length).  The world-level bracket theorems are in TxWorldLemmas.v. *)
Require Import Base Fixed FixedLemmas Constants TxConstants Tx TxSpec.
From Coq Require Import ZifyBool.
Local Open Scope Z_scope.

Lemma prog_eqb_eq p q : prog_eqb p q = true <-> p = q.
Proof.
  destruct p, q; cbn; split; intros H; try reflexivity; try discriminate.
  - apply Z.eqb_eq in H; subst; reflexivity.
  - inversion H; subst; apply Z.eqb_refl.
Qed.

Lemma prog_eqb_refl p : prog_eqb p p = true.
Proof. apply prog_eqb_eq; reflexivity. Qed.

Lemma prog_eqb_sym p q : prog_eqb p q = prog_eqb q p.
Proof.
  destruct (prog_eqb p q) eqn:E.
  - apply prog_eqb_eq in E; subst; symmetry; apply prog_eqb_refl.
  - destruct (prog_eqb q p) eqn:E2; [|reflexivity].
    apply prog_eqb_eq in E2; subst; rewrite prog_eqb_refl in E; discriminate.
Qed.

Lemma len_z_app {A} (l1 l2 : list A) : len_z (l1 ++ l2) = len_z l1 + len_z l2.
Proof. unfold len_z. rewrite app_length. lia. Qed.

Lemma len_z_nonneg {A} (l : list A) : 0 <= len_z l.
Proof. unfold len_z. lia. Qed.

Lemma len_z_map {A B} (f : A -> B) l : len_z (map f l) = len_z l.
Proof. unfold len_z. rewrite map_length. reflexivity. Qed.

Lemma nth_zf_eq {A} (l : list A) : forall i, 0 <= i -> nth_zf l i = nth_error l (Z.to_nat i).
Proof.
  induction l as [|x tl IH]; intros i Hi; cbn [nth_zf].
  - destruct (Z.to_nat i); reflexivity.
  - destruct (Z.eqb_spec i 0) as [->|N]; [reflexivity|].
    rewrite IH by lia. replace (Z.to_nat i) with (S (Z.to_nat (i - 1))) by lia. reflexivity.
Qed.

Lemma nth_z_eq {A} (l : list A) i : nth_z l i = if i <? 0 then None else nth_error l (Z.to_nat i).
Proof. unfold nth_z. destruct (Z.ltb_spec i 0); [reflexivity | apply nth_zf_eq; lia]. Qed.

Lemma nth_z_app_mid {A} (pre : list A) x post : nth_z (pre ++ x :: post) (len_z pre) = Some x.
Proof.
  rewrite nth_z_eq; unfold len_z. replace (Z.of_nat (length pre) <? 0) with false by lia.
  rewrite Nat2Z.id, nth_error_app2, Nat.sub_diag by apply Nat.le_refl. reflexivity.
Qed.

Lemma nth_z_split {A} (l : list A) i x :
  nth_z l i = Some x -> exists pre post, l = pre ++ x :: post /\ len_z pre = i.
Proof.
  rewrite nth_z_eq; unfold len_z. destruct (i <? 0) eqn:E; [discriminate|]. intros H.
  apply nth_error_split in H as (pre & post & -> & Hl). exists pre, post. split; [reflexivity|]. lia.
Qed.

Lemma nth_z_Some {A} {l : list A} {i x} : nth_z l i = Some x -> 0 <= i < len_z l.
Proof.
  intros H. apply nth_z_split in H as (pre & post & -> & <-). rewrite len_z_app. unfold len_z. cbn [length]. lia.
Qed.

Lemma nth_z_In {A} {l : list A} {i x} : nth_z l i = Some x -> In x l.
Proof. intros H. apply nth_z_split in H as (pre & post & -> & _). apply in_elt. Qed.

Lemma nth_z_app {A} (pre : list A) x post j y :
  nth_z (pre ++ x :: post) j = Some y ->
  (j < len_z pre /\ nth_z pre j = Some y) \/ (j = len_z pre /\ y = x) \/
  (len_z pre < j /\ nth_z post (j - len_z pre - 1) = Some y).
Proof.
  rewrite !nth_z_eq; unfold len_z. destruct (j <? 0) eqn:E; [discriminate|]. intros H.
  destruct (Z_lt_ge_dec j (Z.of_nat (length pre))) as [L|L].
  - left. split; [lia|]. rewrite nth_error_app1 in H by lia. exact H.
  - right. rewrite nth_error_app2 in H by lia.
    destruct (Z.eq_dec j (Z.of_nat (length pre))) as [Q|Q].
    + left. split; [exact Q|]. subst j. rewrite Nat2Z.id, Nat.sub_diag in H. cbn in H. congruence.
    + right. split; [lia|].
      replace (j - Z.of_nat (length pre) - 1 <? 0) with false by lia.
      replace (Z.to_nat j - length pre)%nat with (S (Z.to_nat (j - Z.of_nat (length pre) - 1))) in H by lia.
      exact H.
Qed.

Lemma forallb_In {A} {f : A -> bool} {l x} : forallb f l = true -> In x l -> f x = true.
Proof. intros H I. rewrite forallb_forall in H. auto. Qed.

(* the code tests for short data, TxSpec for long *)
Lemma short_not_long d : (d_len d <? 8) = negb (long d).
Proof. unfold long. lia. Qed.

(* one turn of the loop, in the vocabulary of TxSpec *)
Lemma vif_step_true pid exp al d tl :
  vif_loop pid exp al true (d :: tl) =
  if after1 pid exp d then vif_loop pid exp al true tl
  else Err (E (if long d then E_StartRepeats else E_StartNotFirst)).
Proof.
  cbn [vif_loop]. unfold after1, is_cb. rewrite short_not_long.
  destruct (prog_eqb (d_prog d) PCompute), (long d), (is_exp pid exp d); reflexivity.
Qed.

Lemma vif_step_false pid exp al d tl :
  vif_loop pid exp al false (d :: tl) =
  if skip1 pid exp al d then vif_loop pid exp al false tl
  else if tgt pid exp d then vif_loop pid exp al true tl
  else Err (E E_StartNotFirst).
Proof.
  cbn [vif_loop]. unfold skip1, tgt, is_cb. rewrite short_not_long.
  destruct (prog_eqb (d_prog d) PCompute), (long d), (is_exp pid exp d), (pair_in al d); reflexivity.
Qed.

Lemma after1_not_tgt pid exp d : after1 pid exp d = true -> tgt pid exp d = false.
Proof. unfold after1, tgt. destruct (is_cb d), (long d), (is_exp pid exp d); cbn; congruence. Qed.

Lemma skip1_not_tgt pid exp al d : skip1 pid exp al d = true -> tgt pid exp d = false.
Proof. unfold skip1, tgt. destruct (is_cb d), (long d), (is_exp pid exp d); cbn; congruence. Qed.

Lemma vif_loop_true pid exp al l b :
  vif_loop pid exp al true l = Ok b <-> b = true /\ forallb (after1 pid exp) l = true.
Proof.
  induction l as [|d tl IH].
  - cbn. split; [intros H; apply Ok_inj in H; auto | intros [-> _]; reflexivity].
  - rewrite vif_step_true. cbn [forallb]. destruct (after1 pid exp d); cbn [andb]; [exact IH|].
    split; [discriminate | intros [_ H]; discriminate].
Qed.

Lemma vif_loop_false pid exp al l :
  vif_loop pid exp al false l = Ok true <->
  exists pre x post, l = pre ++ x :: post /\ forallb (skip1 pid exp al) pre = true /\
                     tgt pid exp x = true /\ forallb (after1 pid exp) post = true.
Proof.
  split.
  - induction l as [|d tl IH]; [discriminate|]. rewrite vif_step_false.
    destruct (skip1 pid exp al d) eqn:Es.
    + intros H. destruct (IH H) as (pre & x & post & -> & Hp & Hx & Hq).
      exists (d :: pre), x, post. cbn [forallb]. rewrite Es. auto.
    + destruct (tgt pid exp d) eqn:Et; [|discriminate]. intros H. apply vif_loop_true in H as [_ H].
      exists [], d, tl. auto.
  - intros (pre & x & post & -> & Hp & Hx & Hq).
    induction pre as [|p pre IH]; cbn [app]; rewrite vif_step_false.
    + destruct (skip1 pid exp al x) eqn:Es; [apply skip1_not_tgt in Es; congruence|].
      rewrite Hx. apply vif_loop_true. auto.
    + cbn [forallb] in Hp. apply andb_prop in Hp as [-> Hp]. exact (IH Hp).
Qed.

(* The language accepted by validate_ix_first: skippable* target after* *)
Theorem validate_ix_first_spec ixes pid exp al :
  validate_ix_first ixes pid exp al = Ok tt <->
  exists pre x post, ixes = pre ++ x :: post /\ forallb (skip1 pid exp al) pre = true /\
                     tgt pid exp x = true /\ forallb (after1 pid exp) post = true.
Proof.
  rewrite <- vif_loop_false. unfold validate_ix_first. split.
  - intros H. apply bind_ok in H as ([|] & E & H); [exact E | discriminate].
  - intros ->. reflexivity.
Qed.

Lemma tgt_unique {pid exp al pre x post j d} :
  forallb (skip1 pid exp al) pre = true -> forallb (after1 pid exp) post = true ->
  nth_z (pre ++ x :: post) j = Some d -> tgt pid exp d = true -> j = len_z pre.
Proof.
  intros Hp Hq Hn Ht. apply nth_z_app in Hn as [[_ Hn] | [[Hj _] | [_ Hn]]]; [|exact Hj|].
  - apply nth_z_In in Hn. pose proof (forallb_In Hp Hn) as S. apply skip1_not_tgt in S. congruence.
  - apply nth_z_In in Hn. pose proof (forallb_In Hq Hn) as S. apply after1_not_tgt in S. congruence.
Qed.

Theorem validate_ix_last_spec ixes pid exp :
  validate_ix_last ixes pid exp = Ok tt <->
  exists pre y, ixes = pre ++ [y] /\ is_end pid exp y = true.
Proof.
  unfold validate_ix_last. destruct ixes as [|d0 tl] using rev_ind.
  - split; [discriminate | intros (pre & y & H & _); destruct pre; discriminate].
  - clear IHtl. rewrite map_app. cbn [map]. rewrite last_last.
    assert (B : (if d_len d0 <? 8 then Err (E E_EndNotLast)
                 else let* _ := check (prog_eqb (d_prog d0) pid) (E E_EndNotLast) in
                      check (d_disc d0 =? exp) (E E_EndNotLast)) = Ok tt <-> is_end pid exp d0 = true).
    { unfold is_end, is_exp. rewrite short_not_long. destruct (long d0); cbn [negb andb]; [|split; discriminate].
      rewrite bind_check, check_true. symmetry. apply andb_true_iff. }
    rewrite B. split.
    + intros H. exists tl, d0. auto.
    + intros (pre & y & H & Hy). apply app_inj_tail in H as [_ <-]. exact Hy.
Qed.

Theorem validate_ixes_exclusive_spec ixes pid expected :
  validate_ixes_exclusive ixes pid expected = Ok tt <-> forallb (excl_ok pid expected) ixes = true.
Proof.
  induction ixes as [|d tl IH]; cbn [validate_ixes_exclusive forallb]; [tauto|].
  unfold excl_ok at 1. rewrite short_not_long.
  destruct (prog_eqb (d_prog d) pid), (long d), (existsb (fun h => h =? d_disc d) expected); cbn [negb orb andb];
    (exact IH || (split; discriminate)).
Qed.

Theorem load_and_validate_spec ixes keys :
  load_and_validate ixes keys = Ok tt <-> forallb (prog_allowed keys) ixes = true.
Proof.
  induction ixes as [|d tl IH]; cbn [load_and_validate forallb]; [tauto|].
  unfold prog_allowed at 1. destruct (existsb (fun k => prog_eqb k (d_prog d)) keys); cbn [andb]; [exact IH|].
  split; discriminate.
Qed.

Lemma not_cpi_with_sysvar_ok ixes cur i :
  not_cpi_with_sysvar ixes cur = Ok i <-> i = cur /\ exists d, nth_z ixes cur = Some d /\ d_prog d = PMfi.
Proof.
  unfold not_cpi_with_sysvar. destruct (nth_z ixes cur) as [d|]; [|split; [discriminate | intros (_ & d & D & _); discriminate]].
  destruct (prog_eqb (d_prog d) PMfi) eqn:Ep; split; try discriminate.
  - intros H. apply Ok_inj in H. apply prog_eqb_eq in Ep. eauto.
  - intros [-> _]. reflexivity.
  - intros (_ & d' & D & P). injection D as <-. rewrite P in Ep. discriminate.
Qed.

Theorem validate_instructions_spec ixes cur cpi K :
  validate_instructions ixes cur cpi K = Ok tt <->
  forallb (prog_allowed allowed_programs) ixes = true /\
  validate_ix_first ixes PMfi (start_disc K) allowed_pre = Ok tt /\
  validate_ix_last ixes PMfi (end_disc K) = Ok tt /\
  forallb (excl_ok PMfi (excl_list K)) ixes = true /\
  cpi = false /\
  (exists d, nth_z ixes cur = Some d /\ d_prog d = PMfi) /\
  cur < len_z ixes - 1.
Proof.
  unfold validate_instructions. split.
  - intros H.
    apply bind_ok in H as ([] & E1 & H). apply bind_ok in H as ([] & E2 & H).
    apply bind_ok in H as ([] & E3 & H). apply bind_ok in H as ([] & E4 & H).
    apply bind_check in H as [E5 H]. apply bind_ok in H as (i & E6 & H). apply check_true in H.
    apply load_and_validate_spec in E1. apply validate_ixes_exclusive_spec in E4.
    apply not_cpi_with_sysvar_ok in E6 as [-> E6]. apply negb_true_iff in E5.
    repeat split; try assumption. lia.
  - intros (H1 & H2 & H3 & H4 & -> & H6 & H7).
    apply load_and_validate_spec in H1. apply validate_ixes_exclusive_spec in H4.
    rewrite H1, H2, H3, H4, (proj2 (not_cpi_with_sysvar_ok ixes cur cur) (conj eq_refl H6)). cbn [bind check negb].
    replace (cur <? len_z ixes - 1) with true by lia. reflexivity.
Qed.

Lemma start_ne_end K : start_disc K <> end_disc K.
Proof. destruct K; discriminate. Qed.

Lemma is_end_true pid exp d : is_end pid exp d = true <-> d_prog d = pid /\ 8 <= d_len d /\ d_disc d = exp.
Proof. unfold is_end, long, is_exp. rewrite !andb_true_iff, prog_eqb_eq, Z.leb_le, Z.eqb_eq. tauto. Qed.

Lemma tgt_is_end pid exp d : tgt pid exp d = true -> is_end pid exp d = true.
Proof. unfold tgt, is_end. destruct (is_cb d), (long d); cbn; congruence. Qed.

Lemma mfi_tgt {exp d} : d_prog d = PMfi -> 8 <= d_len d -> d_disc d = exp -> tgt PMfi exp d = true.
Proof.
  intros P L D. unfold tgt, is_cb, long, is_exp. rewrite P, D, Z.eqb_refl.
  replace (8 <=? d_len d) with true by lia. reflexivity.
Qed.

Lemma validate_cpi_false {ixes cur cpi K} : validate_instructions ixes cur cpi K = Ok tt -> cpi = false.
Proof. intros V. apply validate_instructions_spec in V. tauto. Qed.

Lemma validate_cur_lt {ixes cur cpi K} : validate_instructions ixes cur cpi K = Ok tt -> cur < len_z ixes - 1.
Proof. intros V. apply validate_instructions_spec in V. tauto. Qed.

Lemma validated_mfi {ixes cur K j d} :
  validate_instructions ixes cur false K = Ok tt -> nth_z ixes j = Some d -> d_prog d = PMfi ->
  existsb (fun h => h =? d_disc d) (excl_list K) = true.
Proof.
  intros V N P. apply validate_instructions_spec in V as (_ & _ & _ & Hx & _).
  pose proof (forallb_In Hx (nth_z_In N)) as X. unfold excl_ok in X. rewrite P in X.
  apply andb_prop in X as [_ X]. exact X.
Qed.

Lemma validated_start_unique {ixes cur K j1 j2 d1 d2} :
  validate_instructions ixes cur false K = Ok tt ->
  nth_z ixes j1 = Some d1 -> tgt PMfi (start_disc K) d1 = true ->
  nth_z ixes j2 = Some d2 -> tgt PMfi (start_disc K) d2 = true -> j1 = j2.
Proof.
  intros V N1 T1 N2 T2. apply validate_instructions_spec in V as (_ & Hf & _).
  apply validate_ix_first_spec in Hf as (pre & x & post & -> & Hp & _ & Hq).
  rewrite (tgt_unique Hp Hq N1 T1). symmetry. exact (tgt_unique Hp Hq N2 T2).
Qed.

Lemma validated_last {ixes cur K n d} :
  validate_instructions ixes cur false K = Ok tt -> nth_z ixes n = Some d -> n + 1 = len_z ixes ->
  (exists pre, ixes = pre ++ [d]) /\ is_end PMfi (end_disc K) d = true.
Proof.
  intros V N Hn. apply validate_instructions_spec in V as (_ & _ & Hl & _).
  apply validate_ix_last_spec in Hl as (pre & y & -> & Hy).
  rewrite len_z_app in Hn. replace n with (len_z pre) in N by (change (len_z [y]) with 1 in Hn; lia).
  rewrite nth_z_app_mid in N. injection N as <-. eauto.
Qed.

Theorem check_flashloan_can_start_spec fl key ixes cur end_idx cpi :
  check_flashloan_can_start fl key ixes cur end_idx cpi = Ok tt <->
  (exists c, nth_z ixes cur = Some c /\ d_prog c = PMfi) /\
  cur < end_idx /\ cpi = false /\
  (exists e, nth_z ixes end_idx = Some e /\ is_endfl_for key e) /\
  f_disabled fl = false /\ f_fl fl = false /\ f_recv fl = false /\ f_frozen fl = false.
Proof.
  unfold check_flashloan_can_start, is_endfl_for. split.
  - intros H. apply bind_ok in H as (ci & E1 & H). apply not_cpi_with_sysvar_ok in E1 as [-> E1].
    apply bind_check in H as [E2 H]. apply bind_check in H as [E3 H].
    destruct (nth_z ixes end_idx) as [e|] eqn:Ee; [|discriminate].
    destruct (Z.ltb_spec (d_len e) 8) as [L|L]; [discriminate|].
    apply bind_check in H as [E4 H]. apply bind_check in H as [E5 H].
    destruct (d_accts e) as [|k0 tl] eqn:Ea; [discriminate|].
    apply bind_check in H as [E6 H]. apply bind_check in H as [E7 H]. apply bind_check in H as [E8 H].
    apply bind_check in H as [E9 H]. apply check_true in H.
    apply prog_eqb_eq in E5. apply Z.eqb_eq in E4, E6. subst k0. apply negb_true_iff in E3, E7, E8, E9, H.
    split; [exact E1|]. split; [apply Z.ltb_lt; exact E2|]. split; [exact E3|].
    split; [exists e; repeat split; try assumption; exists tl; exact Ea|]. auto.
  - intros (H1 & H2 & -> & (e & Ee & Pe & Le & De & (tl & Ae)) & F1 & F2 & F3 & F4).
    rewrite (proj2 (not_cpi_with_sysvar_ok ixes cur cur) (conj eq_refl H1)). cbn [bind].
    rewrite (proj2 (Z.ltb_lt _ _) H2). cbn [check bind negb].
    rewrite Ee, (proj2 (Z.ltb_ge _ _) Le), De, Pe, Ae, Z.eqb_refl. cbn [prog_eqb check bind].
    rewrite Z.eqb_refl, F1, F2, F3, F4. reflexivity.
Qed.
