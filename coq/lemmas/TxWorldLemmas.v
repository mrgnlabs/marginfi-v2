(* TxWorldLemmas.v — world-level proofs for the bracket protocols of model/Tx.v.

   Every invariant used here speaks of each account on its own (`pw`).  Such an invariant is
   `stable` when it survives whatever an instruction outside the bracket protocols can do to an
   account; a step is `quiet` when it preserves every stable invariant.  Each handler is inverted
   once; the dispatcher lemma `exec_top_kind` says that a top-level instruction is either quiet or
   one of the four bracket instructions, and the two transaction invariants (receivership /
   deleverage, flash loan) are carried along `exec_tx_ind`. *)
Require Import Base Fixed FixedLemmas Constants TxConstants Tx TxSpec TxLemmas.
From Coq Require Import ZifyBool.
Local Open Scope Z_scope.

Section W.
Context {BW PF : Type} (R : env BW PF).
Notation world := (world BW PF).
Notation acct := (acct PF).

Definition pw (P : Z -> option acct -> Prop) (w : world) : Prop := forall k, P k (w_accts w k).

Definition idle (A : acct) : Prop := f_fl (a_fl A) = false /\ f_recv (a_fl A) = false.

(* what an instruction outside the receivership protocol (resp. the flash-loan protocol) leaves
   alone; the ghost bit may be set only under IN_FLASHLOAN *)
Definition rkeeps (A A' : acct) : Prop :=
  f_recv (a_fl A') = f_recv (a_fl A) /\ f_delev (a_fl A') = f_delev (a_fl A) /\
  a_recv A' = a_recv A /\ a_cache A' = a_cache A.
Definition fkeeps (A A' : acct) : Prop :=
  f_fl (a_fl A') = f_fl (a_fl A) /\ (a_unchk A' = true -> a_unchk A = true \/ f_fl (a_fl A) = true).
Definition keeps (A A' : acct) : Prop := rkeeps A A' /\ fkeeps A A'.

(* a new account: blank, or (transfer_to_new_account) with the flags of an idle one *)
Definition born (src : option acct) (A' : acct) : Prop :=
  idle A' /\ a_recv A' = 0 /\
  match src with
  | Some A => idle A /\ f_delev (a_fl A') = f_delev (a_fl A) /\ a_unchk A' = a_unchk A
  | None => f_delev (a_fl A') = false /\ a_unchk A' = false
  end.

Record stable (keep : acct -> acct -> Prop) (P : Z -> option acct -> Prop) : Prop := {
  st_keep : forall k A A', P k (Some A) -> keep A A' -> P k (Some A');
  st_close : forall k A, P k (Some A) -> idle A -> P k None;
  st_born : forall k k0 src A', P k None -> P k0 src -> born src A' -> P k (Some A')
}.

Arguments st_keep {keep P}.
Arguments st_close {keep P}.
Arguments st_born {keep P}.

Definition quiet (w w' : world) : Prop := forall P, stable keeps P -> pw P w -> pw P w'.

Lemma quiet_refl w : quiet w w.
Proof. intros P _ H. exact H. Qed.

Lemma quiet_trans {w1 w2 w3 : world} : quiet w1 w2 -> quiet w2 w3 -> quiet w1 w3.
Proof. intros Q1 Q2 P S H. exact (Q2 P S (Q1 P S H)). Qed.

Lemma quiet_r {w w' : world} {P} : quiet w w' -> stable rkeeps P -> pw P w -> pw P w'.
Proof. intros Q [K C B]. apply Q. split; [intros k A A' H [H' _]; exact (K k A A' H H') | exact C | exact B]. Qed.

Lemma quiet_f {w w' : world} {P} : quiet w w' -> stable fkeeps P -> pw P w -> pw P w'.
Proof. intros Q [K C B]. apply Q. split; [intros k A A' H [_ H']; exact (K k A A' H H') | exact C | exact B]. Qed.

Lemma accts_set (w : world) a A k : w_accts (set_acct w a A) k = if k =? a then Some A else w_accts w k.
Proof. reflexivity. Qed.

Lemma accts_set_bw (w : world) b k : w_accts (set_bw w b) k = w_accts w k.
Proof. reflexivity. Qed.

Lemma pw_set {P} {w : world} {a A'} : pw P w -> P a (Some A') -> pw P (set_acct w a A').
Proof. intros H Ha k. rewrite accts_set. destruct (Z.eqb_spec k a) as [->|_]; [exact Ha | apply H]. Qed.

Lemma pw_keep {keep P} {w : world} {a A A'} :
  stable keep P -> pw P w -> w_accts w a = Some A -> keep A A' -> pw P (set_acct w a A').
Proof. intros S H E K. apply pw_set; [exact H|]. apply (st_keep S a A); [rewrite <- E; apply H | exact K]. Qed.

Lemma quiet_upd {w : world} {b a A A'} : w_accts w a = Some A -> keeps A A' -> quiet w (set_acct (set_bw w b) a A').
Proof. intros E K P S H. exact (pw_keep (w := set_bw w b) S H E K). Qed.

Lemma keeps_upd_pf (A : acct) p u :
  (u = true -> a_unchk A = true \/ f_fl (a_fl A) = true) -> keeps A (upd_pf A p u).
Proof. intros H. repeat split; auto. Qed.

Lemma get_acct_ok (w : world) a A : get_acct w a = Ok A <-> w_accts w a = Some A.
Proof. unfold get_acct. destruct (w_accts w a); split; intros H; try discriminate; inversion H; reflexivity. Qed.

Lemma get_acct_bind {B} (w : world) a (k : acct -> res B) v :
  (let* A := get_acct w a in k A) = Ok v -> exists A, w_accts w a = Some A /\ k A = Ok v.
Proof. intros H. apply bind_ok in H as (A & E & H). apply get_acct_ok in E. eauto. Qed.

Lemma auth_checks_ok (w : world) A s b :
  auth_checks w A s b = Ok tt <->
  not_frozen_for_authority A s = true /\ signer_authorized A (w_admin w) s b = true.
Proof. unfold auth_checks. rewrite bind_check, check_true. tauto. Qed.

Definition touch (w : world) a (G : acct -> Prop) (w' : world) : Prop :=
  exists A, w_accts w a = Some A /\ G A /\ quiet w w'.

Lemma touch_quiet {w a G w'} : touch w a G w' -> quiet w w'.
Proof. intros (_ & _ & _ & Q). exact Q. Qed.

Lemma touch_guard {w a G w' A} : touch w a G w' -> w_accts w a = Some A -> G A.
Proof. intros (A0 & E0 & H & _) E. congruence. Qed.

(* withdraw / repay / borrow / deposit: the signer passed the two authority constraints
   (receivership stands in for authority iff allow_recv) and the account is enabled *)
Definition op_guard (w : world) s (allow_recv : bool) (A : acct) : Prop :=
  auth_checks w A s allow_recv = Ok tt /\ f_disabled (a_fl A) = false /\
  (allow_recv = false -> f_recv (a_fl A) = false).

Lemma h_withdraw_ok {w a s bank m al w'} :
  h_withdraw R w a s bank m al = Ok w' ->
  touch w a (fun A => op_guard w s true A /\
               (f_recv (a_fl A) = true ->
                e_w_init R (w_bw w) bank <> 0 /\ exists p, e_price_low R (w_bw w) bank = Ok p /\ 0 < p)) w'.
Proof.
  unfold h_withdraw. intros H. apply get_acct_bind in H as (A & EA & H).
  apply bind_ok in H as ([] & Au & H). apply bind_check_not in H as [C1 H]. apply bind_check_not in H as [D H].
  apply bind_ok in H as ([] & C2 & H). apply bind_ok in H as (r & _ & H).
  exists A. split; [exact EA|]. split; [split; [split; [exact Au | split; [exact D | discriminate]]|]|].
  - intros Fr. rewrite Fr in *. apply bind_ok in C2 as (p & Ep & C2). apply check_true in C2.
    split; [apply Z.eqb_neq; exact C1 | exists p; split; [exact Ep | apply Z.ltb_lt; exact C2]].
  - destruct (f_recv (a_fl A)); [|destruct (f_fl (a_fl A)) eqn:Ff]; [| |apply bind_ok in H as ([] & _ & H)];
      apply Ok_inj in H; subst w'; apply (quiet_upd EA), keeps_upd_pf; auto; discriminate.
Qed.

Lemma h_repay_ok {w a s bank m al w'} : h_repay R w a s bank m al = Ok w' -> touch w a (op_guard w s true) w'.
Proof.
  unfold h_repay. intros H. apply get_acct_bind in H as (A & EA & H).
  apply bind_ok in H as ([] & Au & H). apply bind_check_not in H as [D H].
  apply bind_ok in H as (r & _ & H). apply Ok_inj in H; subst w'.
  exists A. split; [exact EA|]. split; [split; [exact Au | split; [exact D | discriminate]]|].
  apply (quiet_upd EA), keeps_upd_pf. auto.
Qed.

Lemma h_borrow_ok {w a s bank m w'} : h_borrow R w a s bank m = Ok w' -> touch w a (op_guard w s false) w'.
Proof.
  unfold h_borrow. intros H. apply get_acct_bind in H as (A & EA & H).
  apply bind_ok in H as ([] & Au & H). apply bind_check in H as [D H]. apply andb_prop in D as [D Fr].
  apply negb_true_iff in D, Fr. apply bind_ok in H as (r & _ & H).
  exists A. split; [exact EA|]. split; [split; [exact Au | split; [exact D | intros _; exact Fr]]|].
  destruct (f_fl (a_fl A)) eqn:Ff; [|apply bind_ok in H as ([] & _ & H)]; apply Ok_inj in H; subst w';
    apply (quiet_upd EA), keeps_upd_pf; auto; discriminate.
Qed.

Lemma h_deposit_ok {w a s bank m w'} : h_deposit R w a s bank m = Ok w' -> touch w a (op_guard w s false) w'.
Proof.
  unfold h_deposit. intros H. apply get_acct_bind in H as (A & EA & H).
  apply bind_ok in H as ([] & Au & H). apply bind_check in H as [D H]. apply andb_prop in D as [D Fr].
  apply negb_true_iff in D, Fr. apply bind_ok in H as (r & _ & H). apply Ok_inj in H; subst w'.
  exists A. split; [exact EA|]. split; [split; [exact Au | split; [exact D | intros _; exact Fr]]|].
  apply (quiet_upd EA), keeps_upd_pf. auto.
Qed.

Lemma h_bankruptcy_ok {w a s bank w'} : h_bankruptcy R w a s bank = Ok w' -> touch w a idle w'.
Proof.
  unfold h_bankruptcy. intros H. apply get_acct_bind in H as (A & EA & H).
  apply bind_check_not in H as [Fr H]. apply bind_check_not in H as [Ff H].
  apply bind_ok in H as (r & _ & H). apply Ok_inj in H; subst w'.
  exists A. split; [exact EA|]. split; [split; assumption|]. apply (quiet_upd EA). repeat split; auto.
Qed.

Lemma h_init_record_quiet {w : world} {a w'} : h_init_record w a = Ok w' -> quiet w w'.
Proof.
  unfold h_init_record. intros H. apply get_acct_bind in H as (A & EA & H).
  apply bind_check in H as [_ H]. apply Ok_inj in H; subst. intros P S Hp.
  apply (pw_keep S Hp EA). repeat split; auto.
Qed.

Lemma h_liquidate_ok {w l s v ab lb m w'} :
  h_liquidate R w l s v ab lb m = Ok w' ->
  touch w l (fun L => f_recv (a_fl L) = false) w' /\ touch w v idle w'.
Proof.
  unfold h_liquidate. intros H. apply get_acct_bind in H as (L & EL & H). apply get_acct_bind in H as (V & EV & H).
  apply bind_check_not in H as [FL H]. apply bind_ok in H as ([] & _ & H).
  apply bind_check_not in H as [Fr H]. apply bind_check_not in H as [Ff H].
  apply bind_ok in H as ([[bw' pl] pv] & _ & H).
  assert (Q : quiet w w'); [|split; [exists L | exists V]; repeat split; assumption].
  assert (Q : forall u, (u = true -> a_unchk L = true \/ f_fl (a_fl L) = true) ->
              quiet w (set_acct (set_acct (set_bw w bw') v (upd_pf V pv (a_unchk V))) l (upd_pf L pl u))).
  { intros u Hu P S Hp. apply pw_set.
    - apply (pw_keep (w := set_bw w bw') S Hp EV), keeps_upd_pf. auto.
    - apply (st_keep S l L); [rewrite <- EL; apply Hp | apply keeps_upd_pf; exact Hu]. }
  destruct (f_fl (a_fl L)) eqn:Ef; [|apply bind_ok in H as ([] & _ & H)]; apply Ok_inj in H; subst w';
    apply Q; auto; discriminate.
Qed.

(* the new account inherits the flags of the old one, which is idle *)
Lemma h_transfer_ok {w o n s na w'} : h_transfer R w o n s na = Ok w' -> touch w o idle w'.
Proof.
  unfold h_transfer. intros H. apply get_acct_bind in H as (A & EA & H).
  apply bind_check in H as [En H]. apply bind_ok in H as ([] & _ & H).
  apply bind_check_not in H as [Ff H]. apply bind_check_not in H as [Fr H]. apply bind_check in H as [_ H].
  apply Ok_inj in H; subst w'. destruct (w_accts w n) eqn:Enn; [discriminate|].
  exists A. split; [exact EA|]. split; [split; assumption|]. intros P S Hp. apply pw_set.
  - apply (pw_keep S Hp EA). repeat split; auto.
  - apply (st_born S n o (Some A)); [rewrite <- Enn; apply Hp | rewrite <- EA; apply Hp|].
    repeat split; assumption.
Qed.

(* account closure is refused while flagged (can_be_closed) *)
Lemma apply_patch_quiet {w : world} {p w'} : apply_patch w p = Ok w' -> quiet w w'.
Proof.
  unfold apply_patch. intros H P S Hp. destruct (w_accts w (p_key p)) as [A|] eqn:Ea; destruct (p_close p).
  - apply bind_check in H as [C H]. apply Ok_inj in H; subst w'.
    apply andb_prop in C as [C1 C2]. apply negb_true_iff in C1, C2.
    intros k. cbn. destruct (Z.eqb_spec k (p_key p)) as [->|_]; [|apply Hp].
    apply (st_close S _ A); [rewrite <- Ea; apply Hp | split; assumption].
  - apply Ok_inj in H; subst w'. apply (pw_keep S Hp Ea). repeat split; auto.
  - apply Ok_inj in H; subst w'. exact Hp.
  - apply Ok_inj in H; subst w'. apply pw_set; [exact Hp|].
    apply (st_born S _ (p_key p) None); [rewrite <- Ea; apply Hp.. |]. repeat split; reflexivity.
Qed.

Lemma foldM_quiet {X} {f : world -> X -> res world} (F : forall w x w', f w x = Ok w' -> quiet w w') {l w w'} :
  foldM f l w = Ok w' -> quiet w w'.
Proof.
  revert w. induction l as [|x l IH]; intros w H; cbn in H.
  - apply Ok_inj in H; subst. apply quiet_refl.
  - apply bind_ok in H as (w1 & E & H). exact (quiet_trans (F _ _ _ E) (IH _ H)).
Qed.

Lemma h_other_quiet {w d w'} : h_other R w d = Ok w' -> quiet w w'.
Proof.
  unfold h_other. intros H. apply bind_ok in H as (r & _ & H).
  exact (foldM_quiet (@apply_patch_quiet) H).
Qed.

Lemma ok_or_csub a b e h : ok_or (csub a b) e = Ok h -> h = a - b.
Proof.
  unfold ok_or. destruct (csub a b) as [x|[]] eqn:Ec; try discriminate.
  intros H. apply Ok_inj in H; subst. apply csub_inv in Ec as [-> _]. reflexivity.
Qed.

Lemma h_start_ok {K ixes cur cpi} {w : world} {a recv w'} :
  h_start R K ixes cur cpi w a recv = Ok w' ->
  cpi = false /\ validate_instructions ixes cur false K = Ok tt /\
  exists A c, w_accts w a = Some A /\ a_record A = true /\ idle A /\ f_disabled (a_fl A) = false /\
    (K = KDelev -> recv = w_risk_admin w) /\ start_cond R K c (w_bw w) (a_pf A) /\
    w' = set_acct w a (upd_rec A (set_recv (if is_liq K then a_fl A else set_delev (a_fl A) true) true) recv c).
Proof.
  unfold h_start. intros H. apply get_acct_bind in H as (A & EA & H).
  apply bind_check in H as [Erec H]. apply bind_check in H as [Efl H].
  apply bind_ok in H as ([] & Eadm & H). apply bind_ok in H as ([am lm] & Eml & H).
  apply bind_ok in H as (h & Eh & H). apply bind_check in H as [Ehl H].
  apply bind_ok in H as ([ae le] & Eel & H). apply bind_ok in H as ([] & Ev & H).
  apply Ok_inj in H. apply ok_or_csub in Eh. cbn [fst snd] in *.
  apply andb_prop in Efl as [Efl F3]. apply andb_prop in Efl as [F1 F2]. apply negb_true_iff in F1, F2, F3, Ehl.
  pose proof (validate_cpi_false Ev) as ->. split; [reflexivity|]. split; [exact Ev|]. exists A, (mkC4 am lm ae le).
  split; [exact EA|]. split; [exact Erec|]. split; [split; assumption|]. split; [exact F3|].
  split; [|split; [|symmetry; exact H]].
  - intros ->. apply check_true, Z.eqb_eq in Eadm. exact Eadm.
  - split; [exact Eml|]. split; [exact Eel|]. intros ->. rewrite andb_true_r in Ehl. apply Z.ltb_ge in Ehl. rewrite Eh in Ehl. exact Ehl.
Qed.

Lemma h_end_ok {K cpi} {w : world} {a signer w'} :
  h_end R K cpi w a signer = Ok w' ->
  cpi = false /\
  exists A, w_accts w a = Some A /\ f_recv (a_fl A) = true /\ f_fl (a_fl A) = false /\ a_recv A = signer /\
    end_cond R K (a_cache A) (w_bw w) (a_pf A) (w_fee_max w) /\
    w' = set_acct w a (upd_rec A (set_recv (if is_liq K then a_fl A else set_delev (a_fl A) false) false) 0 (a_cache A)).
Proof.
  unfold h_end. intros H. apply get_acct_bind in H as (A & EA & H).
  apply bind_check in H as [_ H]. apply bind_check in H as [Efl H].
  apply bind_ok in H as ([] & Esig & H). apply bind_check in H as [Ecpi H].
  apply bind_ok in H as (pre_h & Epre & H). apply bind_ok in H as ([qa ql] & Eml & H).
  apply bind_ok in H as (post_h & Epost & H). apply bind_check in H as [Ehl H].
  apply bind_ok in H as ([qae qle] & Eel & H). apply bind_check in H as [Eworse H].
  apply bind_ok in H as (seized & Esz & H). apply bind_ok in H as (repaid & Erp & H).
  apply bind_ok in H as ([] & Eprem & H). apply Ok_inj in H. cbn [fst snd] in *.
  apply ok_or_csub in Epost. apply usub_inv in Epre as [-> _], Esz as [-> _], Erp as [-> _]. subst post_h.
  apply andb_prop in Efl as [Efl _]. apply andb_prop in Efl as [F1 F2]. apply negb_true_iff in F2, Ecpi.
  split; [exact Ecpi|]. exists A. split; [exact EA|]. split; [exact F1|]. split; [exact F2|].
  split; [|split; [|symmetry; exact H]].
  - destruct K; cbn [is_liq] in Esig; [|apply bind_check in Esig as [Esig _]]; [apply check_true in Esig|];
      apply Z.eqb_eq; exact Esig.
  - exists qa, ql, qae, qle. split; [exact Eml|]. split; [exact Eel|].
    apply negb_true_iff, Z.ltb_ge in Eworse. split; [exact Eworse|].
    intros -> Hth. cbn [is_liq] in Ehl, Eprem. rewrite (proj2 (Z.ltb_ge _ _) Hth) in Ehl, Eprem.
    rewrite andb_true_r in Ehl. apply negb_true_iff, Z.ltb_ge in Ehl.
    apply bind_ok in Eprem as (f1 & E1 & Eprem). apply bind_ok in Eprem as (f2 & E2 & Eprem).
    apply uadd_inv in E1 as [-> _], E2 as [-> _]. apply check_true, Z.leb_le in Eprem. split; [exact Ehl | exact Eprem].
Qed.

Lemma h_start_fl_ok {ixes cur cpi} {w : world} {a auth e w'} :
  h_start_fl ixes cur cpi w a auth e = Ok w' ->
  cpi = false /\
  exists A, w_accts w a = Some A /\ a_auth A = auth /\ idle A /\
    check_flashloan_can_start (a_fl A) a ixes cur e false = Ok tt /\
    w' = set_acct w a (upd_fl A (set_fl (a_fl A) true)).
Proof.
  unfold h_start_fl. intros H. apply get_acct_bind in H as (A & EA & H).
  apply bind_check in H as [Ea H]. apply bind_ok in H as ([] & Ec & H). apply Ok_inj in H.
  pose proof (proj1 (check_flashloan_can_start_spec _ _ _ _ _ _) Ec) as (_ & _ & -> & _ & _ & Ff & Fr & _).
  split; [reflexivity|]. exists A. split; [exact EA|]. split; [apply Z.eqb_eq; exact Ea|].
  split; [split; assumption|]. split; [exact Ec | symmetry; exact H].
Qed.

Lemma h_end_fl_ok {cpi} {w : world} {a auth nr w'} :
  h_end_fl R cpi w a auth nr = Ok w' ->
  cpi = false /\
  exists A, w_accts w a = Some A /\ a_auth A = auth /\ f_recv (a_fl A) = false /\
    (if nr then e_init_check_norem R (a_pf A) else e_init_check R (w_bw w) (a_pf A)) = Ok tt /\
    w' = set_acct w a (upd_pf (upd_fl A (set_fl (a_fl A) false)) (a_pf A) false).
Proof.
  unfold h_end_fl. intros H. apply get_acct_bind in H as (A & EA & H).
  apply bind_check in H as [Ea H]. apply bind_check in H as [Ecpi H].
  apply bind_check in H as [_ H]. apply bind_check in H as [F2 H]. apply bind_check in H as [_ H].
  apply bind_ok in H as ([] & Ei & H). apply Ok_inj in H. apply negb_true_iff in F2, Ecpi.
  split; [exact Ecpi|]. exists A. split; [exact EA|]. split; [apply Z.eqb_eq; exact Ea|].
  split; [exact F2|]. split; [exact Ei | symmetry; exact H].
Qed.

Inductive bop := BStart (K : bkind) | BEnd (K : bkind) | BStartFL | BEndFL.

(* the discriminator introspection looks for *)
Definition bop_disc (o : bop) : Z :=
  match o with BStart K => start_disc K | BEnd K => end_disc K | BStartFL => IX_SF | BEndFL => IX_EF end.

Definition is_bop (o : bop) (d : ixd) : Prop := d_prog d = PMfi /\ d_disc d = bop_disc o.

Lemma bop_disc_inj {o o'} : bop_disc o = bop_disc o' -> o = o'.
Proof. destruct o as [[]|[]| |], o' as [[]|[]| |]; intros H; try reflexivity; discriminate H. Qed.

Lemma is_bop_inj {o o' d} : is_bop o d -> is_bop o' d -> o = o'.
Proof. intros [_ D] [_ D']. apply bop_disc_inj. congruence. Qed.

(* inside a bracket of kind K the only bracket instructions validate_ixes_exclusive lets through
   are its own start and end *)
Lemma excl_bop {K o} : existsb (fun h => h =? bop_disc o) (excl_list K) = true -> o = BStart K \/ o = BEnd K.
Proof. destruct K, o as [[]|[]| |]; intros H; auto; discriminate H. Qed.

Definition runs (o : bop) ixes cur cpi (w w' : world) (d : ixd) : Prop :=
  exists a, hd_is a d /\
  match o with
  | BStart K => exists r, h_start R K ixes cur cpi w a r = Ok w'
  | BEnd K => exists s, h_end R K cpi w a s = Ok w'
  | BStartFL => exists au e, h_start_fl ixes cur cpi w a au e = Ok w'
  | BEndFL => exists au nr, h_end_fl R cpi w a au nr = Ok w'
  end.

Lemma acct_at_0 {d a} : acct_at d 0 = Ok a -> hd_is a d.
Proof. unfold acct_at, hd_is. destruct (d_accts d) as [|x tl]; cbn; intros H; [discriminate|]. inversion H; subst. eauto. Qed.

(* the discriminator determines the handler (the same 8 bytes introspection compares) *)
Lemma run_mfi_kind {ixes cur cpi w d w'} :
  run_mfi R ixes cur cpi w d = Ok w' ->
  8 <= d_len d /\
  ((exists o, d_disc d = bop_disc o /\ runs o ixes cur cpi w w' d) \/
   ((forall o, d_disc d <> bop_disc o) /\ quiet w w')).
Proof.
  unfold run_mfi. destruct (Z.ltb_spec (d_len d) 8) as [L|L]; [discriminate|]. intros H. split; [exact L|].
  destruct (Z.eqb_spec (d_disc d) DISP_SL) as [E|N1].
  { left. exists (BStart KLiq). split; [exact E|]. apply bind_ok in H as (a & Ea & H). apply bind_ok in H as (r & _ & H).
    exists a. split; [exact (acct_at_0 Ea) | exists r; exact H]. }
  destruct (Z.eqb_spec (d_disc d) DISP_SD) as [E|N2].
  { left. exists (BStart KDelev). split; [exact E|]. apply bind_ok in H as (a & Ea & H). apply bind_ok in H as (r & _ & H).
    exists a. split; [exact (acct_at_0 Ea) | exists r; exact H]. }
  destruct (Z.eqb_spec (d_disc d) DISP_EL) as [E|N3].
  { left. exists (BEnd KLiq). split; [exact E|]. apply bind_ok in H as (a & Ea & H). apply bind_ok in H as (r & _ & H).
    exists a. split; [exact (acct_at_0 Ea) | exists r; exact H]. }
  destruct (Z.eqb_spec (d_disc d) DISP_ED) as [E|N4].
  { left. exists (BEnd KDelev). split; [exact E|]. apply bind_ok in H as (a & Ea & H). apply bind_ok in H as (r & _ & H).
    exists a. split; [exact (acct_at_0 Ea) | exists r; exact H]. }
  destruct (Z.eqb_spec (d_disc d) DISP_SF) as [E|N5].
  { left. exists BStartFL. split; [exact E|]. apply bind_ok in H as (a & Ea & H). apply bind_ok in H as (s & _ & H).
    apply bind_ok in H as (e & _ & H). exists a. split; [exact (acct_at_0 Ea) | exists s, e; exact H]. }
  destruct (Z.eqb_spec (d_disc d) DISP_EF) as [E|N6].
  { left. exists BEndFL. split; [exact E|]. apply bind_ok in H as (a & Ea & H). apply bind_ok in H as (s & _ & H).
    exists a. split; [exact (acct_at_0 Ea) | eexists s, _; exact H]. }
  right. split; [intros [[]|[]| |]; assumption|].
  destruct ((d_disc d =? DISP_WD) || (d_disc d =? DISP_KW) || (d_disc d =? DISP_DW) || (d_disc d =? IX_SW)).
  { do 5 (apply bind_ok in H as (? & _ & H)). exact (touch_quiet (h_withdraw_ok H)). }
  destruct (d_disc d =? DISP_RP).
  { do 5 (apply bind_ok in H as (? & _ & H)). exact (touch_quiet (h_repay_ok H)). }
  destruct (d_disc d =? IX_BR).
  { do 4 (apply bind_ok in H as (? & _ & H)). exact (touch_quiet (h_borrow_ok H)). }
  destruct (d_disc d =? IX_DP).
  { do 4 (apply bind_ok in H as (? & _ & H)). exact (touch_quiet (h_deposit_ok H)). }
  destruct (d_disc d =? DISP_IR).
  { apply bind_ok in H as (? & _ & H). exact (h_init_record_quiet H). }
  destruct (d_disc d =? IX_LQ).
  { do 6 (apply bind_ok in H as (? & _ & H)).
    exact (touch_quiet (proj1 (h_liquidate_ok H))). }
  destruct (d_disc d =? IX_HB).
  { do 3 (apply bind_ok in H as (? & _ & H)).
    exact (touch_quiet (h_bankruptcy_ok H)). }
  destruct (d_disc d =? IX_TR).
  { do 4 (apply bind_ok in H as (? & _ & H)). exact (touch_quiet (h_transfer_ok H)). }
  exact (h_other_quiet H).
Qed.

Lemma runs_top {o ixes cur cpi w w' d} : runs o ixes cur cpi w w' d -> cpi = false.
Proof.
  intros (a & _ & H). destruct o; [destruct H as (r & H); apply h_start_ok in H | destruct H as (s & H); apply h_end_ok in H
    | destruct H as (au & e & H); apply h_start_fl_ok in H | destruct H as (au & nr & H); apply h_end_fl_ok in H]; apply H.
Qed.

Lemma exec_call_cpi_quiet {ixes cur w d w'} : exec_call R ixes cur true w d = Ok w' -> quiet w w'.
Proof.
  unfold exec_call. destruct (prog_eqb (d_prog d) PMfi); intros H.
  - apply run_mfi_kind in H as [_ [(o & _ & Hr) | [_ Q]]]; [|exact Q]. apply runs_top in Hr. discriminate.
  - apply Ok_inj in H; subst. apply quiet_refl.
Qed.

(* a top-level instruction is one of the four bracket instructions, handled by marginfi itself at
   stack height 1, or else it is quiet, whatever it invokes by CPI *)
Lemma exec_top_kind {ixes n w t w'} :
  exec_top R ixes n w t = Ok w' ->
  (exists o, is_bop o (t_d t) /\ 8 <= d_len (t_d t) /\ runs o ixes n false w w' (t_d t)) \/
  ((forall o, ~ is_bop o (t_d t)) /\ quiet w w').
Proof.
  unfold exec_top, exec_call. destruct (prog_eqb (d_prog (t_d t)) PMfi) eqn:E; intros H.
  - apply prog_eqb_eq in E. apply run_mfi_kind in H as [L [(o & D & Hr) | [N Q]]].
    + left. exists o. split; [split; assumption | split; assumption].
    + right. split; [intros o [_ D]; exact (N o D) | exact Q].
  - right. split; [intros o [P _]; rewrite P in E; discriminate|].
    exact (foldM_quiet (fun _ _ _ => exec_call_cpi_quiet) H).
Qed.

Lemma exec_from_app ixes : forall l1 l2 cur w,
  exec_from R ixes cur w (l1 ++ l2) =
  match exec_from R ixes cur w l1 with
  | Committed w1 => exec_from R ixes (cur + len_z l1) w1 l2
  | Aborted i e => Aborted i e
  end.
Proof.
  induction l1 as [|t l1 IH]; intros l2 cur w; cbn [app exec_from].
  - rewrite Z.add_0_r. reflexivity.
  - destruct (exec_top R ixes cur w t) as [w1|e]; [|reflexivity]. rewrite IH.
    replace (cur + 1 + len_z l1) with (cur + len_z (t :: l1)) by (unfold len_z; cbn [length]; lia). reflexivity.
Qed.

(* induction along a committed transaction: P holds of every executed prefix and the world it led to *)
Lemma exec_tx_ind (P : list top_ix -> world -> Prop) (w0 : world) tx :
  P [] w0 ->
  (forall pre t post w w',
     tx = pre ++ t :: post -> exec_from R (map t_d tx) 0 w0 pre = Committed w -> P pre w ->
     nth_z (map t_d tx) (len_z pre) = Some (t_d t) -> exec_top R (map t_d tx) (len_z pre) w t = Ok w' ->
     P (pre ++ [t]) w') ->
  forall w', exec_tx R w0 tx = Some w' -> P tx w'.
Proof.
  intros P0 Step w' H. unfold exec_tx, exec_tx_r in H.
  assert (G : forall l pre w, tx = pre ++ l -> exec_from R (map t_d tx) 0 w0 pre = Committed w -> P pre w ->
                exec_from R (map t_d tx) (len_z pre) w l = Committed w' -> P tx w').
  { induction l as [|t l IH]; intros pre w E Epre Pw Hl; cbn [exec_from] in Hl.
    - injection Hl as <-. rewrite E, app_nil_r. exact Pw.
    - destruct (exec_top R (map t_d tx) (len_z pre) w t) as [w1|] eqn:Et; [|discriminate].
      apply (IH (pre ++ [t]) w1).
      + rewrite E, <- app_assoc. reflexivity.
      + rewrite exec_from_app, Epre, Z.add_0_l. cbn [exec_from]. rewrite Et. reflexivity.
      + apply (Step pre t l w w1 E Epre Pw); [|exact Et].
        rewrite E, map_app, <- (len_z_map t_d pre). apply nth_z_app_mid.
      + rewrite len_z_app. exact Hl. }
  destruct (exec_from R (map t_d tx) 0 w0 tx) as [w1|] eqn:E; [|discriminate]. injection H as <-.
  exact (G tx [] w0 eq_refl eq_refl P0 E).
Qed.

Definition cleanO (o : option acct) : Prop :=
  match o with
  | Some A => f_recv (a_fl A) = false /\ f_delev (a_fl A) = false /\ a_recv A = 0
  | None => True
  end.

Lemma clean_r_pw (w : world) : clean_r w <-> pw (fun _ => cleanO) w.
Proof.
  unfold clean_r, pw, orc, odl, orv, cleanO.
  split; intros H k; specialize (H k); destruct (w_accts w k); auto.
Qed.

(* the account of the bracket (K, c0) being tracked: flagged, with the start-time snapshot c0 in
   its record, or released again *)
Definition trackO (K : bkind) (c0 : cache4) (o : option acct) : Prop :=
  match o with
  | Some A => if f_recv (a_fl A) then a_cache A = c0 /\ (K = KLiq -> f_delev (a_fl A) = false)
              else f_delev (a_fl A) = false /\ a_recv A = 0
  | None => True
  end.

Definition trackP (K : bkind) (a : Z) (c0 : cache4) (k : Z) (o : option acct) : Prop :=
  trackO K c0 o /\ (k <> a -> cleanO o).

Lemma clean_track {K c0 o} : cleanO o -> trackO K c0 o.
Proof. destruct o as [A|]; [|auto]. intros (H1 & H2 & H3). cbn. rewrite H1. auto. Qed.

(* a new account is clean when idle accounts are *)
Lemma born_clean (Q : option acct -> Prop) {src A'} :
  (forall A, Q (Some A) -> f_recv (a_fl A) = false -> f_delev (a_fl A) = false) ->
  Q src -> born src A' -> cleanO (Some A').
Proof.
  intros HQ Hs ((_ & Fr) & Rv & B). split; [exact Fr|]. split; [|exact Rv].
  destruct src as [A|]; [|apply B]. destruct B as ((_ & Fr0) & -> & _). exact (HQ A Hs Fr0).
Qed.

Lemma stable_clean : stable rkeeps (fun _ => cleanO).
Proof.
  split.
  - intros _ A A' H (E1 & E2 & E3 & _). cbn. rewrite E1, E2, E3. exact H.
  - intros. exact I.
  - intros _ _ src A' _ Hs B. exact (born_clean cleanO (fun A H _ => proj1 (proj2 H)) Hs B).
Qed.

Lemma stable_track K a c0 : stable rkeeps (trackP K a c0).
Proof.
  split.
  - intros k A A' [T C] (E1 & E2 & E3 & E4). unfold trackP. cbn. rewrite E1, E2, E3, E4. exact (conj T C).
  - intros. split; intros; exact I.
  - intros k k0 src A' _ [Hs _] B.
    assert (C : cleanO (Some A')).
    { refine (born_clean (trackO K c0) _ Hs B). intros A H Fr. cbn in H. rewrite Fr in H. apply H. }
    split; [apply clean_track; exact C | intros _; exact C].
Qed.

Lemma track_owner {K a c0} {w : world} {b A} :
  pw (trackP K a c0) w -> w_accts w b = Some A -> f_recv (a_fl A) = true ->
  b = a /\ a_cache A = c0 /\ (K = KLiq -> f_delev (a_fl A) = false).
Proof.
  intros H E Fr. destruct (H b) as [T C]. rewrite E in T, C. cbn in T. rewrite Fr in T.
  split; [|exact T]. destruct (Z.eq_dec b a) as [Q|N]; [exact Q|]. destruct (C N) as [C1 _]. congruence.
Qed.

Definition idle_at ixes n (w : world) : Prop :=
  clean_r w /\ forall j K a, 0 <= j < n -> ~ start_at ixes j K a.

(* n instructions have run; the start for account a at index i < n was one of them *)
Record track ixes n (w : world) K a i c0 : Prop := mkTrack {
  t_pos : 0 <= i < n;
  t_start : start_at ixes i K a;
  t_val : validate_instructions ixes i false K = Ok tt;
  t_pw : pw (trackP K a c0) w;
  t_fin : n = len_z ixes -> orc w a = false /\ last_end ixes K a /\ final_facts R K c0 w a
}.

Lemma start_at_bop {ixes i K a d} : start_at ixes i K a -> nth_z ixes i = Some d -> is_bop (BStart K) d /\ hd_is a d.
Proof. intros (d' & N & P & _ & D & Hd) N'. rewrite N in N'. injection N' as <-. repeat split; assumption. Qed.

Lemma hd_is_inj {a b d} : hd_is a d -> hd_is b d -> a = b.
Proof. intros (t1 & E1) (t2 & E2). congruence. Qed.

Lemma track_unique {ixes n w K a i c0 K' a' i'} :
  track ixes n w K a i c0 -> start_at ixes i' K' a' -> K' = K /\ a' = a /\ i' = i.
Proof.
  intros [_ (d & N & P & L & D & Hd) V _ _] (d' & N' & P' & L' & D' & Hd').
  pose proof (validated_mfi V N' P') as X. change (start_disc K') with (bop_disc (BStart K')) in D'.
  rewrite D' in X. apply excl_bop in X as [X|X]; [|discriminate X]. injection X as ->.
  assert (i' = i) as -> by exact (validated_start_unique V N' (mfi_tgt P' L' D') N (mfi_tgt P L D)).
  rewrite N in N'. injection N' as <-. split; [reflexivity|]. split; [exact (hd_is_inj Hd' Hd) | reflexivity].
Qed.

Lemma track_clean {ixes w K a i c0} : track ixes (len_z ixes) w K a i c0 -> clean_r w.
Proof.
  intros [_ _ _ Pw Fin]. destruct (Fin eq_refl) as (F & _). apply clean_r_pw. intros k.
  destruct (Pw k) as [Tk C]. destruct (Z.eq_dec k a) as [->|N]; [|exact (C N)].
  unfold orc in F. destruct (w_accts w a) as [A|]; [|exact I]. cbn in Tk. rewrite F in Tk. split; [exact F | exact Tk].
Qed.

(* one top-level instruction while a bracket is tracked: no second start, and the only end that
   can succeed is the one of the tracked account *)
Lemma track_step {ixes n w w' t K a i c0} :
  exec_top R ixes n w t = Ok w' -> nth_z ixes n = Some (t_d t) ->
  track ixes n w K a i c0 -> track ixes (n + 1) w' K a i c0.
Proof.
  intros H N [Hi SA V Pw _].
  assert (Last : n + 1 = len_z ixes -> (exists pre, ixes = pre ++ [t_d t]) /\ is_bop (BEnd K) (t_d t)).
  { intros Hn. destruct (validated_last V N Hn) as [Hp Hy]. apply is_end_true in Hy.
    split; [exact Hp | split; apply Hy]. }
  apply exec_top_kind in H as [(o & B & L & b & Hb & Hr) | [NB Q]].
  - pose proof (validated_mfi V N (proj1 B)) as X. rewrite (proj2 B) in X.
    apply excl_bop in X as [-> | ->].
    + exfalso. destruct SA as (d & Nd & P & Ld & D & _).
      pose proof (validated_start_unique V N (mfi_tgt (proj1 B) L (proj2 B)) Nd (mfi_tgt P Ld D)). lia.
    + destruct Hr as (s & He). apply h_end_ok in He as (_ & A & EA & Fr & _ & _ & EC & ->).
      destruct (track_owner Pw EA Fr) as (-> & Ec & Hd).
      constructor; [lia | exact SA | exact V | |].
      * apply pw_set; [exact Pw|]. split; [|intros []; reflexivity]. destruct K; cbn; auto.
      * intros Hn. unfold orc. cbn. rewrite Z.eqb_refl. split; [reflexivity|]. split.
        -- destruct (Last Hn) as [(pre & E) [P D]]. exists pre, (t_d t). split; [exact E|]. split; [|exact Hb].
           apply is_end_true. auto.
        -- eexists. cbn. rewrite Z.eqb_refl. split; [reflexivity|]. split; [exact Ec|]. rewrite <- Ec. exact EC.
  - constructor; [lia | exact SA | exact V | exact (quiet_r Q (stable_track K a c0) Pw) |].
    intros Hn. destruct (NB _ (proj2 (Last Hn))).
Qed.

(* one top-level instruction before any start: the world stays clean unless it is a start *)
Lemma idle_step {ixes n w w' t} :
  exec_top R ixes n w t = Ok w' -> nth_z ixes n = Some (t_d t) -> 0 <= n -> idle_at ixes n w ->
  idle_at ixes (n + 1) w' \/
  exists K a c0 A, track ixes (n + 1) w' K a n c0 /\ w_accts w a = Some A /\
                   f_recv (a_fl A) = false /\ start_cond R K c0 (w_bw w) (a_pf A).
Proof.
  intros H N Hn [C NS].
  assert (Next : clean_r w' -> (forall K, ~ is_bop (BStart K) (t_d t)) -> idle_at ixes (n + 1) w').
  { intros C' NB. split; [exact C'|]. intros j K a Hj SA.
    destruct (Z.eq_dec j n) as [->|]; [|apply (NS j K a); [lia | exact SA]].
    exact (NB K (proj1 (start_at_bop SA N))). }
  assert (Cp := proj1 (clean_r_pw w) C).
  apply exec_top_kind in H as [(o & B & L & b & Hb & Hr) | [NB Q]].
  - destruct o as [K|K| |].
    + right. destruct Hr as (r & Hs).
      apply h_start_ok in Hs as (_ & V & A & c & EA & _ & [_ Fr] & _ & _ & SC & ->).
      exists K, b, c, A. split; [|auto]. pose proof (Cp b) as Cb. rewrite EA in Cb. destruct Cb as (_ & Cd & _).
      constructor; [lia | exists (t_d t); repeat split; (assumption || apply B) | exact V | |].
      * apply pw_set; [intros k; split; [apply clean_track, Cp | intros _; apply Cp]|].
        split; [cbn; split; [reflexivity | intros ->; exact Cd] | intros []; reflexivity].
      * intros Hl. pose proof (validate_cur_lt V). lia.
    + exfalso. destruct Hr as (s & He). apply h_end_ok in He as (_ & A & EA & Fr & _).
      specialize (Cp b). rewrite EA in Cp. destruct Cp as [Cp _]. congruence.
    + left. destruct Hr as (au & e & Hs). apply h_start_fl_ok in Hs as (_ & A & EA & _ & _ & _ & ->).
      apply Next; [|intros K B'; discriminate (is_bop_inj B B')].
      apply clean_r_pw. apply (pw_keep stable_clean Cp EA). repeat split.
    + left. destruct Hr as (au & nr & He). apply h_end_fl_ok in He as (_ & A & EA & _ & _ & _ & ->).
      apply Next; [|intros K B'; discriminate (is_bop_inj B B')].
      apply clean_r_pw. apply (pw_keep stable_clean Cp EA). repeat split.
  - left. apply Next; [|intros K; apply NB]. apply clean_r_pw. exact (quiet_r Q stable_clean Cp).
Qed.

Definition started (w0 : world) tx K a i c0 : Prop :=
  exists l1 t l2 wi Ai,
    tx = l1 ++ t :: l2 /\ len_z l1 = i /\ exec_from R (map t_d tx) 0 w0 l1 = Committed wi /\
    w_accts wi a = Some Ai /\ f_recv (a_fl Ai) = false /\ start_cond R K c0 (w_bw wi) (a_pf Ai).

Definition recv_inv (w0 : world) tx n (w : world) : Prop :=
  idle_at (map t_d tx) n w \/
  exists K a i c0, track (map t_d tx) n w K a i c0 /\ started w0 tx K a i c0.

(* C10: a committed transaction from a clean world either contains no start at all, or exactly one
   bracket, which is closed *)
Theorem tx_receivership (w w' : world) tx :
  clean_r w -> exec_tx R w tx = Some w' -> recv_inv w tx (len_z (map t_d tx)) w'.
Proof.
  intros C H. rewrite len_z_map.
  apply (exec_tx_ind (fun pre => recv_inv w tx (len_z pre)) w tx); [| |exact H].
  - left. split; [exact C|]. intros j K a Hj. change (len_z (@nil top_ix)) with 0 in Hj. lia.
  - intros pre t post w1 w2 E Epre I N Ht. rewrite len_z_app. change (len_z [t]) with 1.
    destruct I as [I | (K & a & i & c0 & T & S)].
    + destruct (idle_step Ht N (len_z_nonneg pre) I) as [I' | (K & a & c0 & A & T & EA & Fr & SC)];
        [left; exact I'|].
      right. exists K, a, (len_z pre), c0. split; [exact T|]. exists pre, t, post, w1, A. auto 7.
    + right. exists K, a, i, c0. split; [exact (track_step Ht N T) | exact S].
Qed.

Definition pending (ixes : list ixd) (n k : Z) : Prop :=
  exists j d, n <= j /\ nth_z ixes j = Some d /\ is_endfl_for k d.

(* after n instructions: a flagged account still has its end_flashloan ahead, and an
   initial-margin check is owed only under the flag *)
Definition flO ixes n (k : Z) (o : option acct) : Prop :=
  match o with
  | Some A => (f_fl (a_fl A) = true -> pending ixes n k) /\ (a_unchk A = true -> f_fl (a_fl A) = true)
  | None => True
  end.

Lemma stable_fl ixes n : stable fkeeps (flO ixes n).
Proof.
  split.
  - intros k A A' [P U] [E1 E2]. cbn. rewrite E1. split; [exact P|].
    intros H. destruct (E2 H) as [H'|H']; [exact (U H') | exact H'].
  - intros. exact I.
  - intros k k0 src A' _ Hs ((Ff & _) & _ & B). cbn. rewrite Ff. split; [discriminate|]. intros U. exfalso.
    destruct src as [A|]; [|destruct B as [_ B]; congruence].
    destruct B as ((Ff0 & _) & _ & B). rewrite B in U. rewrite (proj2 Hs U) in Ff0. discriminate.
Qed.

Lemma endfl_clears {ixes n w t w' k} :
  exec_top R ixes n w t = Ok w' -> is_endfl_for k (t_d t) -> ofl w' k = false.
Proof.
  intros H (P & L & D & Hk). apply exec_top_kind in H as [(o & B & _ & b & Hb & Hr) | [NB _]].
  - assert (o = BEndFL) as -> by exact (is_bop_inj (o' := BEndFL) B (conj P D)).
    destruct Hr as (au & nr & He). apply h_end_fl_ok in He as (_ & A & _ & _ & _ & _ & ->).
    rewrite (hd_is_inj Hb Hk). unfold ofl. cbn. rewrite Z.eqb_refl. reflexivity.
  - destruct (NB BEndFL (conj P D)).
Qed.

Lemma fl_step {ixes n w w' t} :
  exec_top R ixes n w t = Ok w' -> nth_z ixes n = Some (t_d t) ->
  pw (flO ixes n) w -> pw (flO ixes (n + 1)) w'.
Proof.
  intros H N Inv.
  assert (W : pw (flO ixes n) w').
  { pose proof H as H0.
    apply exec_top_kind in H0 as [(o & _ & _ & b & _ & Hr) | [_ Q]]; [|exact (quiet_f Q (stable_fl ixes n) Inv)].
    destruct o as [K|K| |].
    - destruct Hr as (r & Hs). apply h_start_ok in Hs as (_ & _ & A & c & EA & _ & _ & _ & _ & _ & ->).
      apply (pw_keep (stable_fl ixes n) Inv EA). destruct K; split; auto.
    - destruct Hr as (s & He). apply h_end_ok in He as (_ & A & EA & _ & _ & _ & _ & ->).
      apply (pw_keep (stable_fl ixes n) Inv EA). destruct K; split; auto.
    - destruct Hr as (au & e & Hs). apply h_start_fl_ok in Hs as (_ & A & EA & _ & _ & V & ->).
      apply check_flashloan_can_start_spec in V as (_ & Hlt & _ & (e0 & Ne & He0) & _).
      apply pw_set; [exact Inv|]. split; [intros _; exists e, e0; split; [lia | auto] | reflexivity].
    - destruct Hr as (au & nr & He). apply h_end_fl_ok in He as (_ & A & EA & _ & _ & _ & ->).
      apply pw_set; [exact Inv|]. split; discriminate. }
  (* the end_flashloan that was pending at n, if any, has just run *)
  intros k. specialize (W k). pose proof (@endfl_clears _ _ _ _ _ k H) as Cl. unfold ofl in Cl.
  destruct (w_accts w' k) as [A'|]; [|exact I]. destruct W as [Pn U]. split; [|exact U].
  intros F. destruct (Pn F) as (j & d & Hj & Nj & Ej).
  destruct (Z.eq_dec j n) as [->|]; [|exists j, d; split; [lia | auto]].
  rewrite N in Nj. injection Nj as <-. rewrite (Cl Ej) in F. discriminate.
Qed.

(* C11: along a committed transaction every flagged account keeps its end_flashloan ahead of it *)
Theorem tx_flashloan (w w' : world) tx :
  pw (flO (map t_d tx) 0) w -> exec_tx R w tx = Some w' -> pw (flO (map t_d tx) (len_z (map t_d tx))) w'.
Proof.
  intros I0 H. rewrite len_z_map.
  apply (exec_tx_ind (fun pre => pw (flO (map t_d tx) (len_z pre))) w tx); [exact I0 | | exact H].
  intros pre t post w1 w2 _ _ Inv N Ht. rewrite len_z_app. exact (fl_step Ht N Inv).
Qed.

Lemma signer_auth_cases (w : world) A s :
  auth_checks w A s true = Ok tt ->
  f_recv (a_fl A) = true \/ (f_frozen (a_fl A) = false /\ s = a_auth A) \/
  (f_frozen (a_fl A) = true /\ s = w_admin w /\ s <> a_auth A).
Proof.
  intros H. apply auth_checks_ok in H as [H1 H2]. unfold not_frozen_for_authority, signer_authorized in *.
  destruct (f_recv (a_fl A)); [left; reflexivity|]. right. cbn [andb] in H2.
  destruct (f_frozen (a_fl A)); cbn [andb negb] in *.
  - right. repeat split; lia.
  - left. split; [reflexivity | lia].
Qed.

(* withdraw.rs: zero-weight and zero-price collateral cannot be withdrawn in receivership *)
Theorem withdraw_guard (w : world) a s bank m al w' A :
  w_accts w a = Some A -> f_recv (a_fl A) = true -> h_withdraw R w a s bank m al = Ok w' ->
  e_w_init R (w_bw w) bank <> 0 /\ exists p, e_price_low R (w_bw w) bank = Ok p /\ 0 < p.
Proof. intros EA Fr H. exact (proj2 (touch_guard (h_withdraw_ok H) EA) Fr). Qed.

Lemma is_ok_false {A} (r : res A) : (forall v, r = Ok v -> False) -> is_ok r = false.
Proof. destruct r; intros H; [exfalso; eapply H; reflexivity | reflexivity]. Qed.

Theorem bracket_ops_not_in_cpi (w : world) :
  (forall K ixes cur a r, is_ok (h_start R K ixes cur true w a r) = false) /\
  (forall K a s, is_ok (h_end R K true w a s) = false) /\
  (forall ixes cur a au e, is_ok (h_start_fl ixes cur true w a au e) = false) /\
  (forall a au nr, is_ok (h_end_fl R true w a au nr) = false).
Proof.
  repeat split; intros; apply is_ok_false; intros v H;
    [apply h_start_ok in H | apply h_end_ok in H | apply h_start_fl_ok in H | apply h_end_fl_ok in H];
    destruct H as [H _]; discriminate H.
Qed.

End W.

(* seized <= repaid * premium in I80F48, read as an inequality between integers *)
Lemma premium_bound sz r M :
  - 2^100 <= r <= 2^100 -> 0 < M < 2^65 -> sz <= wmul r M -> sz * 2^48 <= r * M.
Proof.
  intros Hr HM H. unfold wmul, mul_raw in H. rewrite ONE_val in H.
  assert (Hlo : - 2^117 <= r * M / 281474976710656) by (apply Z.div_le_lower_bound; nia).
  assert (Hhi : r * M / 281474976710656 <= 2^117) by (apply Z.div_le_upper_bound; nia).
  rewrite wrap128_id in H by (rewrite I128_MIN_val, I128_MAX_val; lia).
  pose proof (Z.mul_div_le (r * M) 281474976710656 ltac:(lia)). change (2^48) with 281474976710656. lia.
Qed.
