(* GroupRolesLemmas.v — proofs about model/GroupRoles.v (assignment of the administrator roles). *)
Require Import Base Constants ConfigPaths GroupRoles FixedLemmas.
From Coq Require Import ZifyBool.
Local Open Scope Z_scope.

(* a successful marginfi_group_configure was signed by the CURRENT admin and stores every requested key under the role of
   the same name (no cross-assignment) *)
Lemma group_configure_inv g signer a now g' :
  ix_group_configure g signer a now = Ok g' ->
  signer = gr_admin g /\
  exists c, ix_group_set_caps (gc_init a) (gc_maint a) = Ok c /\
            g' = mkGR (gc_admin a) (gc_emode a) (gc_curve a) (gc_limit a) (gc_emissions a) (gc_metadata a) (gc_risk a) c now.
Proof.
  unfold ix_group_configure. intros [Hc%check_true H]%bind_unit.
  apply bind_ok in H as (c & Hcaps & <-%Ok_inj). split; [lia | eauto].
Qed.

Lemma group_configure_needs_admin g signer a now :
  signer <> gr_admin g -> ix_group_configure g signer a now = Err (E E_Unauthorized).
Proof.
  intros Hne. unfold ix_group_configure. replace (gr_admin g =? signer) with false by lia. reflexivity.
Qed.

Definition gc_key (a : gc_args) (r : grole) : Z :=
  match r with
  | GAdmin => gc_admin a | GEmode => gc_emode a | GCurve => gc_curve a | GLimit => gc_limit a
  | GEmissions => gc_emissions a | GMetadata => gc_metadata a | GRisk => gc_risk a
  end.

