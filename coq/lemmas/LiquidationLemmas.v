(* LiquidationLemmas.v — C05: classic liquidation (Handlers.h_liquidate, Risk.pre_liquidation /
   post_liquidation): eligibility, improvement, bounds, fee split. *)
Require Import Base Constants Fixed Curve Bank BankOps Risk TransferFee Handlers.
Require Import FixedLemmas BankLemmas ValueLemmas AccrualLemmas HandlerLemmas SolvencyLemmas LedgerLemmas.
Require Import RiskValueLemmas HandlerEffects.
From Coq Require Import ZifyBool.
Local Open Scope Z_scope.

(* LIQUIDATION_LIQUIDATOR_FEE = LIQUIDATION_INSURANCE_FEE = 0.025 as I80F48 (rounded down) *)
Lemma liq_fee_val : LIQUIDATION_LIQUIDATOR_FEE = 25 * 2^48 / 1000.
Proof. reflexivity. Qed.
Lemma ins_fee_val : LIQUIDATION_INSURANCE_FEE = 25 * 2^48 / 1000.
Proof. reflexivity. Qed.

(* 1 - 0.025 and 1 - 0.05 as the program computes them *)
Definition D_LIQ : Z := 2^48 - 25 * 2^48 / 1000.
Definition D_FIN : Z := 2^48 - (25 * 2^48 / 1000 + 25 * 2^48 / 1000).

Lemma pre_liquidation_inv ps k h A L :
  pre_liquidation ps (Some k) false = Ok (h, A, L) ->
  (exists p, find_pos ps k = Some p /\ liab_nonempty (ps_bal p) = true /\ asset_nonempty (ps_bal p) = false) /\
  health_components ps RqMaint = Ok (A, L) /\ h = A - L /\ h <= 0.
Proof.
  unfold pre_liquidation. intros H.
  apply bind_ok in H as (u & Hk & H).
  apply bind_ok in H as ([A' L'] & Hc & H). apply bind_ok in H as (h' & Hh & H).
  apply math_ok, csub_inv in Hh as [-> _].
  apply bind_ok in H as (u2 & Hck & H). apply check_ok in Hck. apply Ok_inj in H. inversion H; subst.
  split; [|split; [exact Hc | split; [reflexivity | cbn [negb andb] in Hck; lia]]].
  destruct (find_pos ps k) as [p|]; [|discriminate]. exists p.
  apply bind_ok in Hk as (u3 & H1 & H2). apply check_ok in H1. apply check_ok in H2.
  split; [reflexivity|]. split; [exact H1 | destruct (asset_nonempty (ps_bal p)); [discriminate | reflexivity]].
Qed.

Lemma post_liquidation_inv ps k h0 h1 :
  post_liquidation ps k h0 = Ok h1 ->
  (exists p, find_pos ps k = Some p /\ liab_nonempty (ps_bal p) = true /\ asset_nonempty (ps_bal p) = false) /\
  (exists A L, health_components ps RqMaint = Ok (A, L) /\ h1 = A - L) /\ h0 < h1 <= 0.
Proof.
  unfold post_liquidation. intros H. destruct (find_pos ps k) as [p|]; [|discriminate].
  apply bind_ok in H as (u1 & H1 & H). apply check_ok in H1.
  apply bind_ok in H as (u2 & H2 & H). apply check_ok in H2.
  apply bind_ok in H as ([A L] & Hc & H). apply bind_ok in H as (h & Hh & H). apply math_ok, csub_inv in Hh as [-> _].
  apply bind_ok in H as (u3 & H3 & H). apply check_ok in H3.
  apply bind_ok in H as (u4 & H4 & H). apply check_ok in H4. apply Ok_inj in H. subst h1.
  split; [exists p; split; [reflexivity|]; split; [exact H1 | destruct (asset_nonempty (ps_bal p)); [discriminate | reflexivity]]|].
  split; [exists A, L; split; [exact Hc | reflexivity] | lia].
Qed.

(* the engine's lookup of a bank's position agrees with the wrapper's *)
Lemma find_pos_of_find_active w : forall la ps k i,
  positions w la = Ok ps -> find_active k la = Some i ->
  exists p bl, nth_error la i = Some bl /\ find_pos ps k = Some p /\ ps_bal p = bl.
Proof.
  unfold positions, find_active, find_pos.
  assert (G : forall la n ps k i,
    mapM (fun bl => let* hb := nth_res (Z.to_nat (bl_bank bl - 1)) (hw_banks w) in
                    Ok (mkPos bl (hb_b hb) (hb_c hb) (hb_feed hb))) (filter bl_active la) = Ok ps ->
    find_idx (fun bl => bl_active bl && (bl_bank bl =? k)) la n = Some i ->
    exists p bl, nth_error la (i - n) = Some bl /\
      find (fun p => bl_bank (ps_bal p) =? k) ps = Some p /\ ps_bal p = bl).
  { induction la as [|x r IH]; intros n ps k i Hm Hf; cbn [find_idx] in Hf; [discriminate|].
    cbn [filter] in Hm. destruct (bl_active x) eqn:Ea; cbn [andb] in Hf.
    - cbn [mapM] in Hm. apply bind_ok in Hm as (p & Hp & Hm). apply bind_ok in Hm as (ps' & Hps' & Hm).
      apply Ok_inj in Hm. subst ps. apply bind_ok in Hp as (hb & _ & Hp). apply Ok_inj in Hp. subst p.
      cbn [find ps_bal]. destruct (bl_bank x =? k) eqn:Ek.
      + inversion Hf; subst. replace (i - i)%nat with 0%nat by lia. eexists _, x. repeat split.
      + pose proof (find_idx_spec _ _ _ _ Hf) as (_ & _ & _ & Hle).
        destruct (IH _ _ _ _ Hps' Hf) as (p & bl & H1 & H2 & H3). exists p, bl.
        replace (i - n)%nat with (S (i - S n))%nat by lia. cbn [nth_error]. repeat split; assumption.
    - pose proof (find_idx_spec _ _ _ _ Hf) as (_ & _ & _ & Hle).
      destruct (IH _ _ _ _ Hm Hf) as (p & bl & H1 & H2 & H3). exists p, bl.
      replace (i - n)%nat with (S (i - S n))%nat by lia. cbn [nth_error]. repeat split; assumption. }
  intros la ps k i Hm Hf. destruct (G la 0%nat ps k i Hm Hf) as (p & bl & H1 & H2 & H3).
  rewrite Nat.sub_0_r in H1. exists p, bl. repeat split; assumption.
Qed.

(* world well-formedness needed by the wrapper inversion lemmas (an invariant of the ledger, C02) *)
Definition hw_ok (w : hworld) : Prop :=
  Forall (fun hb => wf_sv (hb_b hb) /\ 0 <= b_tas (hb_b hb) /\ 0 <= b_tls (hb_b hb)) (hw_banks w) /\ accts_ok w.

Lemma accrue_keeps_sv bk pf now bk' :
  wf_sv bk -> 0 <= b_tas bk -> 0 <= b_tls bk -> accrue_interest bk pf now = Ok bk' -> wf_sv bk'.
Proof.
  intros [Ha Hl] Hta Htl H. apply accrue_monotone in H as (M1 & M2 & _); try lia. unfold wf_sv. lia.
Qed.

(* creating / finding a slot for bank k leaves every active slot of another bank where it is *)
Lemma foc_keeps k bk la now i la' j x :
  wrapper_find_or_create k bk la now = Ok (i, la') -> nth_error la j = Some x ->
  bl_active x = true -> bl_bank x <> k -> nth_error la' j = Some x /\ i <> j.
Proof.
  unfold wrapper_find_or_create. intros H Hj Ha Hb.
  destruct (find_active k la) as [i0|] eqn:Ef.
  - apply pair_ok in H as [<- <-]. split; [exact Hj|]. intros ->.
    apply find_active_spec in Ef as (bl & H1 & _ & H3). rewrite Hj in H1. inversion H1; subst. congruence.
  - apply bind_ok in H as (u & _ & H). destruct (find_idx _ la 0) as [i0|] eqn:Ei; [|discriminate].
    apply pair_ok in H as [<- <-]. apply find_idx_spec in Ei as (bl0 & H1 & H2 & _). rewrite Nat.sub_0_r in H1.
    assert (i0 <> j). { intros ->. rewrite Hj in H1. inversion H1; subst. rewrite Ha in H2. discriminate. }
    split; [|assumption]. rewrite nth_set_nth_other by assumption. exact Hj.
Qed.

(* everything a successful classic liquidation did; all witnesses explicit *)
Record liq_facts (w : hworld) (r e ab lb : nat) (n : Z) (w' : hworld)
  (ha hl : hbank) (ee er : hacct) (ba1 bl1 : bank) (ps0 ps1 : list rpos) (h0 A0 L0 h1 : fx)
  (ap lp v1 v2 q_liq q_fin : fx) (i1 i2 i3 i4 : nat) (la1 la3 : laccount)
  (b1 b1' b2 b2' b3 b3' b4 b4' : balance) (bl2 ba2 ba3 bl3 : bank)
  (ee3 er3 : hacct) (ha' hl' : hbank) (f : Z) : Prop := {
  lq_args : 0 < n /\ ab <> lb;
  lq_banks : nth_bank w ab = Ok ha /\ nth_bank w lb = Ok hl;
  lq_accts : nth_acct w e = Ok ee /\ nth_acct w r = Ok er;
  lq_accrued : accrue_interest (hb_b ha) (hw_pf w) (hw_now w) = Ok ba1 /\
               accrue_interest (hb_b hl) (hw_pf w) (hw_now w) = Ok bl1;
  lq_noflash : aflag ee ACCOUNT_IN_FLASHLOAN = false;
  (* eligibility: the liquidatee's sorted positions in the world with both banks accrued *)
  lq_pre : positions (put_hbank (put_hbank w ab (set_hb_b ba1 ha)) lb (set_hb_b bl1 hl)) (sort_balances (ha_la ee)) = Ok ps0 /\
           pre_liquidation ps0 (Some (bank_pk lb)) false = Ok (h0, A0, L0);
  lq_prices : fd_load (hb_feed ha) = Ok tt /\ fd_low_rt (hb_feed ha) = Ok ap /\ 0 < ap /\
              fd_load (hb_feed hl) = Ok tt /\ fd_high_rt (hb_feed hl) = Ok lp /\ 0 < lp;
  lq_qty : calc_value (of_int n) ap (balance_decimals ba1) (Some D_LIQ) = Ok v1 /\
           calc_amount v1 lp (balance_decimals bl1) = Ok q_liq /\
           calc_value (of_int n) ap (balance_decimals ba1) (Some D_FIN) = Ok v2 /\
           calc_amount v2 lp (balance_decimals bl1) = Ok q_fin /\ 0 <= q_fin <= q_liq;
  (* leg 1: the liquidator's position in the debt bank decreases by q_liq *)
  lq_leg1 : wrapper_find_or_create (bank_pk lb) bl1 (ha_la er) (hw_now w) = Ok (i1, la1) /\
            nth_error la1 i1 = Some b1 /\ dec_facts bl1 b1 q_liq DecBypassBorrowLimit bl2 b1';
  (* leg 2: the liquidatee gives up `n` of the collateral (over-liquidation guard first) *)
  lq_leg2 : find_active (bank_pk ab) (sort_balances (ha_la ee)) = Some i2 /\
            nth_error (sort_balances (ha_la ee)) i2 = Some b2 /\
            of_int n <= bl_a b2 * b_asv ba1 / ONE /\
            dec_facts ba1 b2 (of_int n) DecBypassBorrowLimit ba2 b2';
  (* leg 3: the liquidator receives it *)
  lq_leg3 : wrapper_find_or_create (bank_pk ab) ba2 (set_nth i1 b1' la1) (hw_now w) = Ok (i3, la3) /\
            nth_error la3 i3 = Some b3 /\ inc_facts ba2 b3 (of_int n) IncBypassDepositLimit ba3 b3';
  (* leg 4: the liquidatee's debt is repaid by q_fin *)
  lq_leg4 : find_active (bank_pk lb) (set_nth i2 b2' (sort_balances (ha_la ee))) = Some i4 /\
            nth_error (set_nth i2 b2' (sort_balances (ha_la ee))) i4 = Some b4 /\ i4 <> i2 /\
            inc_facts bl2 b4 q_fin IncRepayOnly bl3 b4';
  (* final accounts *)
  lq_ee3 : ee3 = mkHA (set_nth i4 b4' (set_nth i2 b2' (sort_balances (ha_la ee)))) (ha_flags ee) /\
           nth_acct w' e = Ok ee3;
  lq_er3 : er3 = mkHA (sort_balances (set_nth i3 b3' la3)) (ha_flags er) /\ nth_acct w' r = Ok er3 /\
           In b1' (ha_la er3) /\ In b3' (ha_la er3);
  (* final banks: the insurance fee q_liq - q_fin leaves the liquidity vault as whole tokens, the
     fraction is booked to the outstanding insurance fees *)
  lq_hl' : nth_bank w' lb = Ok hl' /\ tfee hl ((q_liq - q_fin) / ONE) = Ok f /\
           (q_liq - q_fin) / ONE <= hb_vault hl /\
           hb_vault hl' = hb_vault hl - (q_liq - q_fin) / ONE /\
           hb_insv hl' = hb_insv hl + (q_liq - q_fin) / ONE - f /\
           hb_feev hl' = hb_feev hl /\ hb_feeata hl' = hb_feeata hl /\
           b_ins (hb_b hl') = b_ins bl1 + (q_liq - q_fin) mod ONE /\
           b_tas (hb_b hl') = b_tas bl3 /\ b_tls (hb_b hl') = b_tls bl3 /\
           b_asv (hb_b hl') = b_asv bl1 /\ b_lsv (hb_b hl') = b_lsv bl1;
  lq_ha' : nth_bank w' ab = Ok ha' /\
           hb_vault ha' = hb_vault ha /\ hb_insv ha' = hb_insv ha /\ hb_feev ha' = hb_feev ha /\ hb_feeata ha' = hb_feeata ha /\
           b_tas (hb_b ha') = b_tas ba3 /\ b_tls (hb_b ha') = b_tls ba3 /\
           b_asv (hb_b ha') = b_asv ba1 /\ b_lsv (hb_b ha') = b_lsv ba1 /\ b_ins (hb_b ha') = b_ins ba1;
  (* post conditions *)
  lq_post : positions w' (ha_la ee3) = Ok ps1 /\ post_liquidation ps1 (bank_pk lb) h0 = Ok h1;
  lq_liqor : init_health_check w' er3 = Ok tt;
  lq_wf : wf_sv ba1 /\ wf_sv bl1 /\ wf_bal b1 /\ wf_bal b2 /\ wf_bal b3 /\ wf_bal b4 /\
          (bl_active b1 = true /\ bl_bank b1 = bank_pk lb) /\ (bl_active b2 = true /\ bl_bank b2 = bank_pk ab) /\
          (bl_active b3 = true /\ bl_bank b3 = bank_pk ab) /\ (bl_active b4 = true /\ bl_bank b4 = bank_pk lb)
}.

Lemma positions_put_hacct w a x la : positions (put_hacct w a x) la = positions w la.
Proof. reflexivity. Qed.

Lemma cache_fields b pf now b' : update_bank_cache b pf now = Ok b' ->
  b_tas b' = b_tas b /\ b_tls b' = b_tls b /\ b_asv b' = b_asv b /\ b_lsv b' = b_lsv b /\ b_ins b' = b_ins b.
Proof. intros H. apply update_bank_cache_core in H as [-> | ->]; cbn; repeat split; reflexivity. Qed.

(* one leg of the liquidation: the slot found (or created) for bank k holds a well-formed active balance
   of that bank, and the wrapper call on it is characterised by its facts *)
Lemma dec_leg_facts k bk la i la1 bl t q ty bk' bl' :
  located k la i la1 -> nth_res i la1 = Ok bl -> Forall wf_bal la -> wf_sv bk -> 0 <= q ->
  decrease_balance bk bl t q ty = Ok (bk', bl') ->
  nth_error la1 i = Some bl /\ (bl_active bl = true /\ bl_bank bl = k) /\ wf_bal bl /\
  dec_facts bk bl q ty bk' bl' /\ wf_sv bk' /\ Forall wf_bal (set_nth i bl' la1).
Proof.
  intros Hloc Hbl Wla Sv Hq Hdec.
  destruct (slot_located _ _ _ _ _ Hloc Hbl Wla) as (Ha & Hb & Wbl & Wla1 & _).
  pose proof (decrease_balance_inv _ _ _ _ _ _ _ Sv Wbl Hq Hdec) as F.
  destruct (decrease_value _ _ _ _ _ _ _ Sv Wbl Hq Hdec) as (_ & Wbl').
  destruct (df_sv _ _ _ _ _ _ F) as [S1 S2]. unfold wf_sv in *.
  split; [exact (nth_res_ok _ _ _ Hbl)|]. split; [split; assumption|]. split; [exact Wbl|]. split; [exact F|].
  split; [lia | apply Forall_set_nth; assumption].
Qed.
Lemma inc_leg_facts k bk la i la1 bl t q ty bk' bl' :
  located k la i la1 -> nth_res i la1 = Ok bl -> Forall wf_bal la -> wf_sv bk -> 0 <= q ->
  increase_balance bk bl t q ty = Ok (bk', bl') ->
  nth_error la1 i = Some bl /\ (bl_active bl = true /\ bl_bank bl = k) /\ wf_bal bl /\ inc_facts bk bl q ty bk' bl'.
Proof.
  intros Hloc Hbl Wla Sv Hq Hinc.
  destruct (slot_located _ _ _ _ _ Hloc Hbl Wla) as (Ha & Hb & Wbl & _).
  split; [exact (nth_res_ok _ _ _ Hbl)|]. split; [split; assumption|]. split; [exact Wbl|].
  exact (increase_balance_inv _ _ _ _ _ _ _ Sv Wbl Hq Hinc).
Qed.

Theorem h_liquidate_inv w r e ab lb n w' :
  hw_ok w -> r <> e -> h_liquidate w r e ab lb n = Ok w' ->
  exists ha hl ee er ba1 bl1 ps0 ps1 h0 A0 L0 h1 ap lp v1 v2 q_liq q_fin i1 i2 i3 i4 la1 la3
         b1 b1' b2 b2' b3 b3' b4 b4' bl2 ba2 ba3 bl3 ee3 er3 ha' hl' f,
    liq_facts w r e ab lb n w' ha hl ee er ba1 bl1 ps0 ps1 h0 A0 L0 h1 ap lp v1 v2 q_liq q_fin i1 i2 i3 i4 la1 la3
              b1 b1' b2 b2' b3 b3' b4 b4' bl2 ba2 ba3 bl3 ee3 er3 ha' hl' f.
Proof.
  intros [Hbanks Haccts] Hre H.
  destruct (liquidate_gen_inv positions _ _ _ _ _ _ _ (fun _ _ _ _ => eq_refl) H)
    as (ha & hl & ee & er & ba1 & bl1 & ps0 & ps1 & h0 & A0 & L0 & h1 & ap & lp & v1 & v2 & q_liq & q_fin & i1 & i2 & i3 & i4 & la1 & la3 &
        b1 & b1' & b2 & b2' & b3 & b3' & b4 & b4' & bl2 & ba2 & ba3 & bl3 & ee3 & er3 & ha' & hl' & f & ins_n & ba4 & bl5 & R).
  destruct R as [(Hha & Hhl) (Hn & Hne & _) (Hee & Her) (_ & _ & _ & _ & Hfl) _ (Hba1 & Hbl1) Hpre (Hla & Hap & Hap0 & Hll & Hlp & Hlp0)
                 (Hv1 & Hql & Hv2 & Hqf & Hqf0 & Hif0) (Hfc1 & Hb1 & Hdec1) (Hf2 & Hb2 & Hover & Hdec2) (Hfc3 & Hb3 & Hinc3) (Hf4 & Hb4 & Hinc4)
                 (Em & Hvault & Hf & _) (Hba4 & Hbl5) -> -> -> -> -> Hpost Hgate].
  (* well-formedness *)
  pose proof (nth_res_Forall _ _ _ _ Hha Hbanks) as (Sva & Taa & Tla).
  pose proof (nth_res_Forall _ _ _ _ Hhl Hbanks) as (Svl & Tal & Tll).
  pose proof (accrue_keeps_sv _ _ _ _ Sva Taa Tla Hba1) as Sva1.
  pose proof (accrue_keeps_sv _ _ _ _ Svl Tal Tll Hbl1) as Svl1.
  pose proof (accts_ok_nth _ _ _ Haccts Her) as Wer.
  pose proof (Forall_sort _ _ (accts_ok_nth _ _ _ Haccts Hee)) as Wee1.
  (* quantities *)
  change (ONE - LIQUIDATION_LIQUIDATOR_FEE) with D_LIQ in Hv1.
  change (ONE - (LIQUIDATION_INSURANCE_FEE + LIQUIDATION_LIQUIDATOR_FEE)) with D_FIN in Hv2.
  assert (Hn0 : 0 <= of_int n) by (apply Z.mul_nonneg_nonneg; [apply Z.lt_le_incl, Hn | apply Z.lt_le_incl, ONE_pos]).
  assert (Hql0 : 0 <= q_liq) by lia.
  (* the four legs *)
  destruct (dec_leg_facts _ _ _ _ _ _ _ _ _ _ _ (located_create _ _ _ _ _ _ Hfc1) Hb1 Wer Svl1 Hql0 Hdec1) as (Nb1 & AB1 & Wb1 & F1 & Svl2 & Wla2).
  destruct (dec_leg_facts _ _ _ _ _ _ _ _ _ _ _ (located_find _ _ _ Hf2) Hb2 Wee1 Sva1 Hn0 Hdec2)
    as (Nb2 & AB2 & Wb2 & F2 & Sva2 & Wla4).
  destruct (inc_leg_facts _ _ _ _ _ _ _ _ _ _ _ (located_create _ _ _ _ _ _ Hfc3) Hb3 Wla2 Sva2 Hn0 Hinc3) as (Nb3 & AB3 & Wb3 & F3).
  destruct (inc_leg_facts _ _ _ _ _ _ _ _ _ _ _ (located_find _ _ _ Hf4) Hb4 Wla4 Svl2 Hqf0 Hinc4)
    as (Nb4 & AB4 & Wb4 & F4).
  unfold wrapper_find in Hf2, Hf4.
  destruct (find_active (bank_pk ab) (sort_balances (ha_la ee))) as [j2|] eqn:Hf2'; [apply Ok_inj in Hf2 as -> | discriminate].
  destruct (find_active (bank_pk lb) (set_nth i2 b2' (sort_balances (ha_la ee)))) as [j4|] eqn:Hf4'; [apply Ok_inj in Hf4 as -> | discriminate].
  (* the insurance fee: whole tokens and fraction *)
  apply to_u64_inv in Em as [-> _].
  (* the liquidator's two slots are different, and so are the liquidatee's *)
  destruct (df_meta _ _ _ _ _ _ F1) as (M1a & M1b & _). destruct (df_meta _ _ _ _ _ _ F2) as (M2a & M2b & _).
  assert (Hpk : bank_pk lb <> bank_pk ab) by (intros E; apply bank_pk_inj in E; congruence).
  assert (Hi42 : i4 <> i2).
  { intros ->. rewrite (nth_set_nth_same _ _ _ _ Nb2) in Nb4. injection Nb4 as <-. destruct AB2, AB4. congruence. }
  destruct (foc_keeps _ _ _ _ _ _ i1 b1' Hfc3) as [Nb1' Hi31];
    [apply (nth_set_nth_same _ _ _ _ Nb1) | destruct AB1; congruence | destruct AB1; congruence |].
  destruct (cache_fields _ _ _ _ Hba4) as (Ca1 & Ca2 & Ca3 & Ca4 & Ca5).
  destruct (cache_fields _ _ _ _ Hbl5) as (Cl1 & Cl2 & Cl3 & Cl4 & Cl5).
  destruct (df_sv _ _ _ _ _ _ F1) as [S1a S1l]. destruct (df_sv _ _ _ _ _ _ F2) as [S2a S2l].
  destruct (if_sv _ _ _ _ _ _ F3) as [S3a S3l]. destruct (if_sv _ _ _ _ _ _ F4) as [S4a S4l].
  destruct (df_fees _ _ _ _ _ _ F1) as (I1 & _). destruct (df_fees _ _ _ _ _ _ F2) as (I2 & _).
  destruct (if_fees _ _ _ _ _ _ F3) as (I3 & _). destruct (if_fees _ _ _ _ _ _ F4) as (I4 & _).
  destruct (set_two (hw_banks w) ab lb (set_hb_b ba4 ha)
              (set_hb_insv (hb_insv hl + (q_liq - q_fin) / ONE - f) (set_hb_vault (hb_vault hl - (q_liq - q_fin) / ONE) (set_hb_b bl5 hl)))
              _ _ Hne Hha Hhl) as [EhaB EhlB].
  destruct (set_two (hw_accts w) e r (mkHA (set_nth i4 b4' (set_nth i2 b2' (sort_balances (ha_la ee)))) (ha_flags ee))
              (sort_acct (mkHA (set_nth i3 b3' la3) (ha_flags er))) _ _ (not_eq_sym Hre) Hee Her) as [Ee3 Er3].
  exists ha, hl, ee, er, ba1, bl1, ps0, ps1, h0, A0, L0, h1, ap, lp, v1, v2, q_liq, q_fin, i1, i2, i3, i4, la1, la3.
  exists b1, b1', b2, b2', b3, b3', b4, b4', bl2, ba2, ba3, bl3. do 4 eexists. exists f.
  constructor.
  - split; assumption.
  - split; assumption.
  - split; assumption.
  - split; assumption.
  - exact Hfl.
  - exact Hpre.
  - repeat split; assumption.
  - repeat split; assumption.
  - split; [exact Hfc1|]. split; [exact Nb1 | exact F1].
  - split; [exact Hf2'|]. split; [exact Nb2|]. split; [exact Hover | exact F2].
  - split; [exact Hfc3|]. split; [exact Nb3 | exact F3].
  - split; [exact Hf4'|]. split; [exact Nb4|]. split; [exact Hi42 | exact F4].
  - split; [reflexivity | exact Ee3].
  - split; [reflexivity|]. split; [exact Er3|].
    cbn [sort_acct ha_la]. rewrite !In_sort. split.
    + exact (set_nth_In_other _ _ i1 _ _ Hi31 Nb1').
    + exact (nth_error_set_nth_In _ _ _ _ Nb3).
  - split; [exact EhlB|]. split; [exact Hf|]. split; [exact Hvault|].
    do 4 (split; [reflexivity|]). cbn [set_hb_b set_hb_vault set_hb_insv hb_b].
    rewrite Cl1, Cl2, Cl3, Cl4, Cl5. cbn [set_b_ins b_ins b_tas b_tls b_asv b_lsv].
    rewrite I4, I1, S4a, S1a, S4l, S1l. repeat split; reflexivity.
  - split; [exact EhaB|]. do 4 (split; [reflexivity|]). cbn [set_hb_b hb_b].
    rewrite Ca1, Ca2, Ca3, Ca4, Ca5, S3a, S2a, S3l, S2l, I3, I2. repeat split; reflexivity.
  - exact Hpost.
  - exact Hgate.
  - exact (conj Sva1 (conj Svl1 (conj Wb1 (conj Wb2 (conj Wb3 (conj Wb4 (conj AB1 (conj AB2 (conj AB3 AB4))))))))).
Qed.

(* the world the eligibility check is evaluated on *)
Definition accrued_world (w : hworld) (ab lb : nat) (ha hl : hbank) (ba1 bl1 : bank) : hworld :=
  put_hbank (put_hbank w ab (set_hb_b ba1 ha)) lb (set_hb_b bl1 hl).

(* a passed post-check speaks about the wrapper's active slot of the liability bank: it still holds
   at least 1.0 liability shares and fewer than 1.0 asset shares *)
Lemma post_liquidation_slot w la ps k h0 h1 i bl :
  positions w la = Ok ps -> post_liquidation ps k h0 = Ok h1 ->
  find_active k la = Some i -> nth_error la i = Some bl ->
  liab_nonempty bl = true /\ asset_nonempty bl = false.
Proof.
  intros Hps Hpost Hfa Hbl.
  destruct (find_pos_of_find_active _ _ _ _ _ Hps Hfa) as (p & bl' & Hn & Hfp & Ebl).
  rewrite Hbl in Hn. apply Some_inj in Hn as <-.
  destruct (post_liquidation_inv _ _ _ _ Hpost) as ((p' & Hfp' & Hl & Ha) & _).
  rewrite Hfp in Hfp'. apply Some_inj in Hfp' as <-. rewrite Ebl in Hl, Ha. split; assumption.
Qed.

(* a decrease by no more than the position's asset amount takes asset shares only *)
Lemma dec_within_assets b bl d t b' bl' :
  wf_sv b -> wf_bal bl -> 0 <= d <= bl_a bl * b_asv b / ONE -> dec_facts b bl d t b' bl' ->
  bl_l bl' = bl_l bl /\ 0 <= bl_a bl' <= bl_a bl.
Proof.
  intros [Hasv _] [Hba _] Hd F. pose proof ONE_pos as HO.
  rewrite (df_l _ _ _ _ _ _ F), (df_a _ _ _ _ _ _ F).
  replace (dec_l_inc b bl d) with 0 by (unfold dec_l_inc; lia).
  replace (dec_a_dec b bl d) with d by (unfold dec_a_dec; lia).
  change (lshares b 0) with 0. destruct (ashares_le b d ltac:(lia) Hasv) as [As0 _].
  assert (Hle : ashares b d <= bl_a bl).
  { unfold ashares. destruct (b_asv b =? 0) eqn:E0; [lia|]. apply Z.div_le_upper_bound; [lia|].
    pose proof (Z.mul_div_le (bl_a bl * b_asv b) ONE HO). nia. }
  lia.
Qed.
