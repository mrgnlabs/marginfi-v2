(* BankruptcyLemmas.v — C07: lending_pool_handle_bankruptcy (Handlers.h_bankruptcy) and
   Bank::socialize_loss (Bank.socialize_loss).
   socialize_loss is characterised exactly by the new asset share value (range, loss accounting up to
   rounding, kill flag). The accounting of the handler is done on the bank alone: accrue, socialise the
   uncovered loss, repay exactly the position's debt, refresh the cache, kill the bank if the share value
   fell to 0. h_bankruptcy is then the handler's effect (HandlerEffects) with the amounts in closed form;
   the theorems of props/C07.v are projections of it.  Last: the eligibility test reads the account's unweighted
   equity (unweighted_is_equity), and the example worlds of props/C07.v. *)
Require Import Base Constants Fixed Curve Bank BankOps Risk TransferFee Handlers.
Require Import FixedLemmas BankLemmas AccrualLemmas HandlerLemmas SolvencyLemmas FrameLemmas LedgerLemmas HandlerEffects.
From Coq Require Import ZifyBool.
Local Open Scope Z_scope.

Record soc_facts (b : bank) (loss : fx) (b' : bank) (kill : bool) : Prop := {
  sf_frame : b' = set_b_asv (b_asv b') b;
  sf_range : 0 <= b_asv b' <= b_asv b;
  sf_wiped : b_tas b * b_asv b / ONE <= loss -> b_asv b' = 0 /\ kill = true;
  sf_kill : kill = true <-> b_asv b' = 0;
  (* scale 2^96: deposits fall by at least the loss (unless wiped out) ... *)
  sf_lower : loss < b_tas b * b_asv b / ONE -> loss * ONE <= b_tas b * b_asv b - b_tas b * b_asv b';
  (* ... and by less than loss + 1 ulp + one ulp of the share value per share *)
  sf_upper : b_tas b * b_asv b - b_tas b * b_asv b' < (loss + 1) * ONE + b_tas b;
  (* the same at the precision the program computes total deposits with (get_asset_amount) *)
  sf_floor : loss < b_tas b * b_asv b / ONE ->
             b_tas b * b_asv b / ONE - loss - (b_tas b / ONE + 1) <= b_tas b * b_asv b' / ONE
             /\ b_tas b * b_asv b' / ONE <= b_tas b * b_asv b / ONE - loss
}.

Lemma socialize_loss_inv b loss b' kill :
  0 <= b_asv b -> 0 <= b_tas b -> 0 <= loss ->
  socialize_loss b loss = Ok (b', kill) -> soc_facts b loss b' kill.
Proof.
  intros Ha Ht Hl H. pose proof ONE_pos as HO.
  pose proof (Z.div_mod (b_tas b * b_asv b) ONE ltac:(lia)) as DM.
  pose proof (Z.mod_pos_bound (b_tas b * b_asv b) ONE HO) as MB.
  destruct (socialize_loss_raw _ _ _ _ Ha Ht H) as [(E & -> & ->) | (nsv & E & Htp & Hn & Hnr & -> & ->)];
    set (total := b_tas b * b_asv b / ONE) in *.
  - assert (ONE * total <= ONE * loss) by (apply Z.mul_le_mono_nonneg_l; lia).
    constructor; cbn [b_asv set_b_asv b_tas]; rewrite ?Z.mul_0_r; try reflexivity; try lia;
      try (split; reflexivity); try (intros _; split; reflexivity).
  - set (d := total - loss) in *. assert (Hd0 : 0 < d) by lia.
    pose proof (Z.div_mod (d * ONE) (b_tas b) ltac:(lia)) as DN.
    pose proof (Z.mod_pos_bound (d * ONE) (b_tas b) Htp) as NB.
    rewrite <- Hn in DN.
    pose proof (Z.div_mod (b_tas b) ONE ltac:(lia)) as DT.
    pose proof (Z.mod_pos_bound (b_tas b) ONE HO) as TB.
    cbn [b_asv set_b_asv b_tas].
    assert (HlO : 0 <= loss * ONE) by (apply Z.mul_nonneg_nonneg; lia).
    assert (Hle : nsv <= b_asv b).
    { apply (Z.mul_le_mono_pos_l _ _ (b_tas b) Htp). lia. }
    constructor; cbn [b_asv set_b_asv b_tas]; try reflexivity; try lia.
    + intros _. split.
      * apply Z.div_le_lower_bound; [lia|]. lia.
      * apply Z.div_le_upper_bound; [lia|]. lia.
Qed.

(* every depositor's claim is valued with the one new share value: exact claims (scale 2^96) are all
   scaled by asv'/asv, no claim grows, and the rounded claim the program reports does not grow *)
Lemma pro_rata asv asv' : 0 <= asv' <= asv ->
  (forall s1 s2, (s1 * asv') * (s2 * asv) = (s2 * asv') * (s1 * asv)) /\
  (forall s, 0 <= s -> s * asv' <= s * asv /\ s * asv' / ONE <= s * asv / ONE).
Proof.
  intros H. split; [intros; ring|]. intros s Hs. pose proof ONE_pos.
  assert (s * asv' <= s * asv) by (apply Z.mul_le_mono_nonneg_l; lia).
  split; [assumption|]. apply Z.div_le_mono; lia.
Qed.

Definition bank_sane (bk : bank) : Prop := 0 <= b_asv bk /\ 0 < b_lsv bk /\ 0 <= b_tas bk /\ 0 <= b_tls bk.

Lemma accrue_sane b pf now b1 : bank_sane b -> accrue_interest b pf now = Ok b1 ->
  bank_sane b1 /\ b_tas b1 = b_tas b /\ b_tls b1 = b_tls b /\ b_op_state b1 = b_op_state b /\ b_last_update b1 = now.
Proof.
  intros (Sa & Sl & Sta & Stl) H.
  pose proof (accrue_monotone _ _ _ _ Sa ltac:(lia) Sta Stl H) as (M1 & M2 & _ & _ & _ & _ & M7 & M8 & M9).
  pose proof (cs_op_state _ _ (accrue_frame _ _ _ _ H)) as Fop. unfold bank_sane. repeat split; lia.
Qed.

Lemma hb_ok_sane hb : hb_ok hb -> bank_sane (hb_b hb).
Proof. intros ((A & L & Ta & Tl) & P & Lp & _). unfold bank_sane. lia. Qed.

Lemma repay_whole_debt b bl now b' bl' :
  wf_sv b -> wf_bal bl -> increase_balance b bl now (bl_l bl * b_lsv b / ONE) IncRepayOnly = Ok (b', bl') ->
  bl_a bl' = bl_a bl /\ b_tas b' = b_tas b /\ b_tls b' - b_tls b = bl_l bl' - bl_l bl /\
  0 <= bl_l bl' <= bl_l bl /\ bl_l bl' * b_lsv b < ONE + b_lsv b /\
  b_asv b' = b_asv b /\ b_lsv b' = b_lsv b /\ bl_active bl' = bl_active bl /\ bl_bank bl' = bl_bank bl.
Proof.
  intros Hsv Hwf H. pose proof Hsv as (Ha & Hl). pose proof Hwf as (Wa & Wl).
  destruct (increase_balance_inv _ _ _ _ _ _ _ Hsv Hwf (amount_nonneg (bl_l bl) (b_lsv b) Wl ltac:(lia)) H)
    as [Fa Fl Fta Ftl (V1 & V2) _ (M1 & M2 & _) _ _ _].
  unfold inc_a_inc in Fa, Fta. rewrite Z.sub_diag, Z.max_id in Fa, Fta.
  rewrite ashares_zero in Fa, Fta.
  unfold inc_l_dec, lshares in Fl, Ftl. rewrite Z.min_id in Fl, Ftl.
  destruct (resid_bound _ _ Wl Hl) as (R1 & R2). rewrite <- Fl in R2.
  repeat split; try assumption; lia.
Qed.

Definition bad_debt (bk1 : bank) (bl : balance) : fx := bl_l bl * b_lsv bk1 / ONE.

(* the bank bk5 and the balance bl3 after the debt of bl was settled in the accrued bank bk1, bk2 being the bank with the
   loss socialised: only the asset share value and the operational state may differ from bk1, the totals move with
   the balance, and what remains of the debt is rounding *)
Definition settled (bk1 : bank) (bl : balance) (bk2 : bank) (kill : bool) (bk5 : bank) (bl3 : balance) : Prop :=
  b_asv bk5 = b_asv bk2 /\ b_lsv bk5 = b_lsv bk1 /\ b_tas bk5 = b_tas bk1 /\ b_tls bk5 - b_tls bk1 = bl_l bl3 - bl_l bl /\
  b_op_state bk5 = (if kill then OP_KILLED else b_op_state bk1) /\
  bl_a bl3 = bl_a bl /\ bl_active bl3 = bl_active bl /\ bl_bank bl3 = bl_bank bl /\
  0 <= bl_l bl3 <= bl_l bl /\ bl_l bl3 * b_lsv bk1 < ONE + b_lsv bk1.

Lemma settle_bad_debt bk1 bl loss bk2 kill now bk3 bl3 pf t bk4 :
  bank_sane bk1 -> wf_bal bl -> 0 <= loss ->
  socialize_loss bk1 loss = Ok (bk2, kill) ->
  increase_balance bk2 bl now (bad_debt bk1 bl) IncRepayOnly = Ok (bk3, bl3) ->
  update_bank_cache bk3 pf t = Ok bk4 ->
  let bk5 := if kill then set_b_op_state OP_KILLED bk4 else bk4 in
  soc_facts bk1 loss bk2 kill /\ settled bk1 bl bk2 kill bk5 bl3 /\ (b_last_update bk1 = t -> b_last_update bk5 = t).
Proof.
  intros (Sa & Sl & St & Stl) Hwf Hl0 Hsoc Hinc Hcache bk5.
  pose proof (socialize_loss_inv _ _ _ _ Sa St Hl0 Hsoc) as SF.
  pose proof (sf_frame _ _ _ _ SF) as Fr. destruct (sf_range _ _ _ _ SF) as (R0 & _).
  assert (E2 : b_lsv bk2 = b_lsv bk1 /\ b_tas bk2 = b_tas bk1 /\ b_tls bk2 = b_tls bk1 /\ b_op_state bk2 = b_op_state bk1)
    by (rewrite Fr; repeat split; reflexivity).
  destruct E2 as (L2 & T2 & TL2 & O2).
  unfold bad_debt in Hinc. rewrite <- L2 in Hinc.
  assert (W2 : wf_sv bk2) by (split; lia).
  destruct (repay_whole_debt _ _ _ _ _ W2 Hwf Hinc) as (A3 & T3 & TL3 & R3 & Q3 & V3a & V3l & M3a & M3b).
  pose proof (frame_increase _ _ _ _ _ _ _ Hinc) as ((_ & _ & O3 & _) & _ & U3).
  destruct (NAV_cache _ _ _ _ Hcache) as (_ & C1 & C2 & C3 & C4 & C5).
  assert (K : b_asv bk5 = b_asv bk4 /\ b_lsv bk5 = b_lsv bk4 /\ b_tas bk5 = b_tas bk4 /\ b_tls bk5 = b_tls bk4 /\
              b_op_state bk5 = if kill then OP_KILLED else b_op_state bk4) by (unfold bk5; destruct kill; repeat split; reflexivity).
  destruct K as (K1 & K2 & K3 & K4 & K5).
  split; [exact SF|]. split.
  - unfold settled. rewrite K1, K2, K3, K4, K5, C1, C2, C3, C4, C5, O3, O2, V3a, V3l, T3, T2, <- L2.
    repeat split; try assumption; lia.
  - intros U1. assert (U4 : b_last_update bk4 = t).
    { apply update_bank_cache_core in Hcache as [-> | ->]; [|reflexivity]. rewrite U3, Fr. exact U1. }
    unfold bk5. destruct kill; exact U4.
Qed.

Definition ceil_tokens (x : fx) : Z := (x + ONE - 1) / ONE.

Lemma cceil_tokens x ce n : cceil x = Ok ce -> to_u64_checked ce = Ok n ->
  n = ceil_tokens x /\ 0 <= n <= U64_MAX /\ ce = n * ONE /\ x <= ce < x + ONE.
Proof.
  intros Hc Hn. apply cceil_inv in Hc. apply to_u64_inv in Hn as [Hn Hr]. pose proof ONE_pos as HO.
  pose proof (Z.div_mod x ONE ltac:(lia)) as DM. pose proof (Z.mod_pos_bound x ONE HO) as MB.
  unfold ceil_tokens.
  destruct (x mod ONE =? 0) eqn:E.
  - assert (E1 : (x + ONE - 1) / ONE = x / ONE).
    { symmetry. apply (Z.div_unique _ _ _ (ONE - 1)); lia. }
    subst ce n. rewrite E1. repeat split; lia.
  - assert (E1 : (x + ONE - 1) / ONE = x / ONE + 1).
    { symmetry. apply (Z.div_unique _ _ _ (x mod ONE - 1)); lia. }
    assert (E2 : (x / ONE * ONE + ONE) / ONE = x / ONE + 1).
    { replace (x / ONE * ONE + ONE) with ((x / ONE + 1) * ONE) by ring. apply Z.div_mul. lia. }
    subst ce n. rewrite E1, E2 in *. repeat split; lia.
Qed.

Lemma validate_paused_ok bk u : validate_bank_state bk KFailsInPaused = Ok u ->
  b_op_state bk <> OP_KILLED /\ b_op_state bk <> OP_PAUSED.
Proof.
  unfold validate_bank_state. destruct (b_op_state bk =? OP_KILLED) eqn:E1; [discriminate|].
  destruct (b_op_state bk =? OP_PAUSED) eqn:E2; [discriminate|]. intros _. lia.
Qed.

Lemma check_bankrupt_inv ps A L : check_bankrupt ps false = Ok (A, L) ->
  health_components ps RqEquity = Ok (A, L) /\ A < L /\ A < BANKRUPT_THRESHOLD /\ ZERO_AMOUNT_THRESHOLD < L.
Proof.
  unfold check_bankrupt. intros H.
  apply bind_ok in H as ([a l] & Hh & H). apply bind_ok in H as (u1 & _ & H).
  apply bind_ok in H as (u2 & H2 & H). apply check_ok in H2.
  apply bind_ok in H as (u3 & H3 & H). apply check_ok in H3.
  apply pair_ok in H as [<- <-]. split; [exact Hh|]. lia.
Qed.

Lemma lor_keeps_flag f g k : Z.land f k = k -> Z.land (Z.lor f g) k = k.
Proof.
  intros H. rewrite Z.land_lor_distr_l, H. apply Z.bits_inj'. intros n Hn.
  rewrite Z.lor_spec, Z.land_spec. destruct (Z.testbit k n); [reflexivity|]. rewrite Bool.andb_false_r. reflexivity.
Qed.

(* what the insurance fund (avail_n whole tokens) does not cover of a bad debt *)
Definition uncovered (bad : fx) (avail_n : Z) : fx := bad - Z.min bad (avail_n * ONE).

Record bk_facts (w : hworld) (a b : nat) (w' : hworld)
    (hb : hbank) (ac : hacct) (ps : list rpos) (A L : fx) (bk1 : bank) (i : nat) (bl : balance)
    (fi pre f : Z) (bk2 : bank) (kill : bool) (bk3 : bank) (bl3 : balance) (bk4 : bank) : Prop := {
  kf_eff : eff1 w w' a b hb
             (set_hb_b (if kill then set_b_op_state OP_KILLED bk4 else bk4)
                       (set_hb_vault (hb_vault hb + pre - f) (set_hb_insv (hb_insv hb - pre) hb)))
             ac (mkHA (set_nth i bl3 (ha_la ac)) (Z.lor (ha_flags ac) ACCOUNT_DISABLED));
  kf_state : b_op_state (hb_b hb) <> OP_KILLED /\ b_op_state (hb_b hb) <> OP_PAUSED;
  kf_noflash : aflag ac ACCOUNT_IN_FLASHLOAN = false;
  kf_pos : positions w (ha_la ac) = Ok ps;
  kf_health : health_components ps RqEquity = Ok (A, L);
  kf_bankrupt : A < L /\ A < BANKRUPT_THRESHOLD /\ ZERO_AMOUNT_THRESHOLD < L;
  kf_accrue : accrue_interest (hb_b hb) (hw_pf w) (hw_now w) = Ok bk1;
  kf_slot : nth_error (ha_la ac) i = Some bl /\ bl_active bl = true /\ bl_bank bl = bank_pk b;
  kf_owes : ZERO_AMOUNT_THRESHOLD < bad_debt bk1 bl;
  (* insurance available: vault balance net of the Token-2022 transfer fee *)
  kf_avail : tfee hb (hb_insv hb) = Ok fi;
  kf_pre : pre_fee hb (ceil_tokens (Z.min (bad_debt bk1 bl) ((hb_insv hb - fi) * ONE))) = Ok pre;
  kf_cov_range : 0 <= ceil_tokens (Z.min (bad_debt bk1 bl) ((hb_insv hb - fi) * ONE)) <= U64_MAX;
  kf_funds : pre <= hb_insv hb;
  kf_fee : tfee hb pre = Ok f;
  kf_soc : socialize_loss bk1 (uncovered (bad_debt bk1 bl) (hb_insv hb - fi)) = Ok (bk2, kill);
  kf_repay : increase_balance bk2 bl (t64 w) (bad_debt bk1 bl) IncRepayOnly = Ok (bk3, bl3);
  kf_cache : update_bank_cache bk3 (hw_pf w) (hw_now w) = Ok bk4
}.

Lemma uncovered_nonneg bad n : 0 <= uncovered bad n.
Proof. unfold uncovered. lia. Qed.

Lemma h_bankruptcy_inv w a b w' :
  h_bankruptcy w a b = Ok w' ->
  exists hb ac ps A L bk1 i bl fi pre f bk2 kill bk3 bl3 bk4,
    bk_facts w a b w' hb ac ps A L bk1 i bl fi pre f bk2 kill bk3 bl3 bk4.
Proof.
  intros H. destruct (h_bankruptcy_effect _ _ _ _ H) as (hb & hb' & ac & ac' & E & F).
  destruct F as (ps & A & L & bk1 & i & bl & bad & avail_n & covered & loss & ce & cov_n & pre & f & bk2 & kill & bk3 & bl3 & bk4 &
                 Hst & Hfl & Hps & Hcb & Hacc & Hfa & Hbl & Hbad & Howes & Hav & -> & -> & Hce & Hcn & Hpre & Hfunds & Hf & Hsoc & Hrep & Hcache & -> & ->).
  apply validate_paused_ok in Hst. apply check_bankrupt_inv in Hcb as (Hh & Hbk).
  apply find_active_spec in Hfa as (bl0 & Hbl0 & Hact & Hbank).
  apply nth_res_ok in Hbl. rewrite Hbl in Hbl0. apply Some_inj in Hbl0 as <-.
  apply get_liability_amount_inv in Hbad. fold (bad_debt bk1 bl) in Hbad. subst bad.
  assert (Hfi : exists fi, tfee hb (hb_insv hb) = Ok fi /\ avail_n = hb_insv hb - fi).
  { unfold tfee in *. destruct (hb_t22 hb).
    - destruct Hav as (f0 & Hf0 & ->). exists f0. split; [exact Hf0|reflexivity].
    - exists 0. split; [reflexivity|lia]. }
  destruct Hfi as (fi & Hfi & ->).
  destruct (cceil_tokens _ _ _ Hce Hcn) as (-> & Hcr & _).
  unfold fmin, fmax, of_int in *.
  replace (Z.max _ 0) with (uncovered (bad_debt bk1 bl) (hb_insv hb - fi)) in Hsoc by (unfold uncovered; lia).
  exists hb, ac, ps, A, L, bk1, i, bl, fi, pre, f, bk2, kill, bk3, bl3, bk4.
  constructor; auto.
Qed.

Lemma bankruptcy_after w a b w' hb ac :
  h_bankruptcy w a b = Ok w' -> nth_bank w b = Ok hb -> nth_acct w a = Ok ac ->
  bank_sane (hb_b hb) -> Forall wf_bal (ha_la ac) ->
  exists hb' bk1 i bl fi bk2 kill bl3,
    eff1 w w' a b hb hb' ac (mkHA (set_nth i bl3 (ha_la ac)) (Z.lor (ha_flags ac) ACCOUNT_DISABLED)) /\
    accrue_interest (hb_b hb) (hw_pf w) (hw_now w) = Ok bk1 /\
    (nth_error (ha_la ac) i = Some bl /\ bl_active bl = true /\ bl_bank bl = bank_pk b) /\
    tfee hb (hb_insv hb) = Ok fi /\
    socialize_loss bk1 (uncovered (bad_debt bk1 bl) (hb_insv hb - fi)) = Ok (bk2, kill) /\
    soc_facts bk1 (uncovered (bad_debt bk1 bl) (hb_insv hb - fi)) bk2 kill /\
    (bank_sane bk1 /\ b_tas bk1 = b_tas (hb_b hb) /\ b_tls bk1 = b_tls (hb_b hb) /\ b_op_state bk1 = b_op_state (hb_b hb)) /\
    b_op_state (hb_b hb) <> OP_KILLED /\
    settled bk1 bl bk2 kill (hb_b hb') bl3 /\ b_last_update (hb_b hb') = hw_now w.
Proof.
  intros H Hb Ha Hs Hw.
  apply h_bankruptcy_inv in H as (hb0 & ac0 & ps & A & L & bk1 & i & bl & fi & pre & f & bk2 & kill & bk3 & bl3 & bk4 & F).
  destruct F as [E (NK & _) _ _ _ _ Facc Sl _ Ffi _ _ _ _ Fsoc Frep Fcache].
  pose proof E as (Hb0 & Ha0 & _). rewrite Hb in Hb0. rewrite Ha in Ha0. apply Ok_inj in Hb0, Ha0. subst hb0 ac0.
  destruct (accrue_sane _ _ _ _ Hs Facc) as (S1 & T1 & TL1 & O1 & U1).
  destruct (settle_bad_debt _ _ _ _ _ _ _ _ _ _ _ S1 (Forall_nth_error _ _ _ _ Hw (proj1 Sl))
              (uncovered_nonneg _ _) Fsoc Frep Fcache) as (SF & R & U).
  eexists _, bk1, i, bl, fi, bk2, kill, bl3. split; [exact E|].
  split; [exact Facc|]. split; [exact Sl|]. split; [exact Ffi|]. split; [exact Fsoc|]. split; [exact SF|].
  split; [auto|]. split; [exact NK|]. split; [exact R|exact (U U1)].
Qed.

(* "Unweighted assets": the risk engine values deposits in ISOLATED-tier banks at 0 for every
   requirement type, Equity included.  `unweighted_components` values them like any other deposit
   (weight 1, low-bias price); it coincides with the engine's equity components exactly when the
   account has no deposit in an isolated-tier bank. *)
Definition as_collateral (p : rpos) : rpos :=
  mkPos (ps_bal p) (ps_bank p)
        (mkRC (rc_awi (ps_cfg p)) (rc_awm (ps_cfg p)) (rc_lwi (ps_cfg p)) (rc_lwm (ps_cfg p)) TIER_COLLATERAL
              (rc_tavil (ps_cfg p)) (rc_emode_tag (ps_cfg p)) (rc_emode (ps_cfg p)))
        (ps_feed p).
Definition unweighted_components (ps : list rpos) : res (fx * fx) := health_components (map as_collateral ps) RqEquity.

Definition isolated_deposit (p : rpos) : bool :=
  (rc_tier (ps_cfg p) =? TIER_ISOLATED) && asset_nonempty (ps_bal p) && negb (liab_nonempty (ps_bal p)).

Lemma weighted_value_as_collateral p r em :
  isolated_deposit p = false -> weighted_value (as_collateral p) r em = weighted_value p r em.
Proof.
  intros H. unfold weighted_value. cbn [as_collateral ps_bal].
  destruct (get_side (ps_bal p)) as [[[|]|]|e] eqn:S; cbn [bind]; try reflexivity.
  assert (T : (rc_tier (ps_cfg p) =? TIER_ISOLATED) = false).
  { unfold get_side in S. apply bind_ok in S as (u & _ & S).
    unfold isolated_deposit, asset_nonempty, liab_nonempty in H.
    destruct (EMPTY_BALANCE_THRESHOLD <=? bl_l (ps_bal p)); [apply Ok_inj in S; discriminate|].
    destruct (EMPTY_BALANCE_THRESHOLD <=? bl_a (ps_bal p)); [|apply Ok_inj in S; discriminate].
    destruct (rc_tier (ps_cfg p) =? TIER_ISOLATED); [discriminate H|reflexivity]. }
  unfold weighted_asset_value. cbn [as_collateral ps_cfg ps_bank ps_feed ps_bal rc_tier]. rewrite T.
  change (TIER_COLLATERAL =? TIER_ISOLATED) with false. cbv iota. reflexivity.
Qed.

Lemma engine_emode_as_collateral ps : engine_emode (map as_collateral ps) = engine_emode ps.
Proof.
  unfold engine_emode. f_equal. induction ps as [|p r IH]; [reflexivity|]. cbn [map filter as_collateral ps_bal].
  destruct (liab_nonempty (ps_bal p)); cbn [map as_collateral ps_cfg rc_emode]; rewrite IH; reflexivity.
Qed.

Lemma health_sum_as_collateral r em : forall ps a l,
  forallb (fun p => negb (isolated_deposit p)) ps = true ->
  health_sum (map as_collateral ps) r em a l = health_sum ps r em a l.
Proof.
  induction ps as [|p rest IH]; intros a l H; [reflexivity|]. cbn [forallb] in H. apply Bool.andb_true_iff in H as [Hp Hr].
  cbn [map health_sum]. rewrite weighted_value_as_collateral by (destruct (isolated_deposit p); [discriminate|reflexivity]).
  destruct (weighted_value p r em) as [[[av lv] c]|e]; cbn [bind]; [|reflexivity].
  destruct (math (cadd a av)) as [a'|e]; cbn [bind]; [|reflexivity].
  destruct (math (cadd l lv)) as [l'|e]; cbn [bind]; [|reflexivity]. apply IH. exact Hr.
Qed.

Lemma unweighted_is_equity ps :
  forallb (fun p => negb (isolated_deposit p)) ps = true -> unweighted_components ps = health_components ps RqEquity.
Proof.
  intros H. unfold unweighted_components, health_components. rewrite engine_emode_as_collateral.
  apply health_sum_as_collateral. exact H.
Qed.

(* concrete worlds: the non-vacuity example of props/C07.v and the witness of its refuted statement *)
Definition ex_ir : ir_config :=
  mkIR 0 0 0 (ONE / 100) (ONE / 10) (ONE / 100) (ONE / 10) 0 429496729 [mkRP 2147483648 214748364] 1.
Definition ex_bank (tas : Z) : bank :=
  mkBank ONE ONE (tas * ONE) (100 * ONE) 0 0 0 1000 U64_MAX U64_MAX 0 0 0 0 0 1 1 1 ex_ir.
Definition ex_slot (a l : Z) : balance := mkBal true 1 0 (a * ONE) (l * ONE) 0 0.
Definition ex_la (s : balance) : laccount := s :: repeat bal_empty 15.
Definition ex_w (tas insv : Z) : hworld :=
  mkHW [mkHB (ex_bank tas) (mkRC ONE ONE ONE ONE 0 0 0 []) (fixed_feed ONE) 900 insv 0 0 false 0 0 0]
       [mkHA (ex_la (ex_slot tas 0)) 0; mkHA (ex_la (ex_slot 0 100)) 0]
       1000 (mkPF false 0 0) [[0]; [0]] false.
Definition ex_view (r : res hworld) : option (Z * Z * Z * Z * Z * Z) :=
  match r with
  | Ok w => match hw_banks w, hw_accts w with
            | [hb], [_; d] => Some (b_asv (hb_b hb), b_op_state (hb_b hb), hb_vault hb, hb_insv hb,
                                    ha_flags d, match ha_la d with s :: _ => bl_l s | [] => -1 end)
            | _, _ => None end
  | Err _ => None end.

(* debtor of `ex_w` that additionally holds 5000 tokens ($5000) in a second, isolated-tier bank *)
Definition ex_w_iso : hworld :=
  mkHW [mkHB (ex_bank 1000) (mkRC ONE ONE ONE ONE 0 0 0 []) (fixed_feed ONE) 900 30 0 0 false 0 0 0;
        mkHB (ex_bank 5000) (mkRC 0 0 ONE ONE 1 0 0 []) (fixed_feed ONE) 5000 0 0 0 false 0 0 0]
       [mkHA (ex_la (ex_slot 1000 0)) 0;
        mkHA (ex_slot 0 100 :: mkBal true 2 0 (5000 * ONE) 0 0 0 :: repeat bal_empty 14) 0]
       1000 (mkPF false 0 0) [[0; 0]; [0; 0]] false.
