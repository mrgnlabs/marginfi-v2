(* WorldCheckLemmas.v — soundness of the boolean world check: hok2b w = true -> HOk2 w *)
Require Import Base Constants Fixed Curve Bank BankOps Risk TransferFee Handlers WorldCheck.
Require Import BankLemmas CurveLemmas AccrualLemmas HandlerLemmas SolvencyLemmas LedgerLemmas SolvencyHandlers HandlerWorld.
From Coq Require Import ZifyBool.
Local Open Scope Z_scope.

Lemma lsumb_eq f la : lsumb f la = lsum f la.
Proof. induction la as [|x r IH]; cbn; [reflexivity|]. unfold lsumb in IH. rewrite IH. reflexivity. Qed.
Lemma wsumb_eq f accts : wsumb f accts = wsum f accts.
Proof. induction accts as [|x r IH]; cbn; [reflexivity|]. unfold wsumb in IH. rewrite IH, lsumb_eq. reflexivity. Qed.
Lemma wsum_ext f g accts : (forall x, f x = g x) -> wsum f accts = wsum g accts.
Proof.
  intros E. induction accts as [|la r IH]; cbn; [reflexivity|]. rewrite IH. f_equal.
  induction la as [|x l IHl]; cbn; [reflexivity|]. rewrite IHl, E. reflexivity.
Qed.


Lemma valid_curveb_sound b : valid_curveb (b_ir b) = true -> valid_curve b.
Proof.
  unfold valid_curveb. intros H.
  apply andb_prop in H as (H & Ht). apply andb_prop in H as (H & Hv). apply andb_prop in H as (H & Hp).
  apply andb_prop in H as (H & H4). apply andb_prop in H as (H & H3). apply andb_prop in H as (H1 & H2).
  unfold valid_curve, cfg_ok. split; [|split].
  - split; [lia|]. split; [lia|]. rewrite forallb_forall in Hp. apply Forall_forall. intros p Hin.
    specialize (Hp p Hin). unfold pt_okb in Hp. unfold pt_ok. lia.
  - unfold res_is_ok_tt in Hv. destruct (validate_seven_point (b_ir b)) as [[]|]; [reflexivity|discriminate].
  - lia.
Qed.

Lemma hb_okb_sound hb : hb_okb hb = true -> hb_ok hb /\ fees_rep (hb_b hb).
Proof.
  unfold hb_okb. intros H.
  apply andb_prop in H as (H & Hp). apply andb_prop in H as (H & Hg). apply andb_prop in H as (H & Hm).
  apply andb_prop in H as (H & Hb2). apply andb_prop in H as (H & Hb1). apply andb_prop in H as (H & Hc).
  apply andb_prop in H as (H & Htl). apply andb_prop in H as (H & Hta). apply andb_prop in H as (Ha & Hl).
  split; [|unfold fees_rep; lia].
  unfold hb_ok, wf_bank. split; [lia|]. split; [lia|]. split; [lia|]. split; [apply valid_curveb_sound; exact Hc|]. lia.
Qed.

Lemma ledger_okb_sound banks : forall k accts, ledger_okb banks k accts = true ->
  forall j hb, nth_error banks j = Some hb ->
  wsum (ca (bank_pk (k + j))) accts <= b_tas (hb_b hb) /\ wsum (cl (bank_pk (k + j))) accts <= b_tls (hb_b hb).
Proof.
  induction banks as [|hb0 r IH]; intros k accts H j hb Hj; [destruct j; discriminate|].
  cbn [ledger_okb] in H. apply andb_prop in H as (H & Hr). apply andb_prop in H as (H1 & H2).
  destruct j as [|j]; cbn in Hj.
  - apply Some_inj in Hj. subst hb0. rewrite Nat.add_0_r. rewrite !wsumb_eq in H1, H2.
    rewrite (wsum_ext (ca (bank_pk k)) (caZ (bank_pk k))) by reflexivity.
    rewrite (wsum_ext (cl (bank_pk k)) (clZ (bank_pk k))) by reflexivity. lia.
  - replace (k + S j)%nat with (S k + j)%nat by lia. eapply IH; eauto.
Qed.

Theorem hok2b_sound w : hok2b w = true -> HOk2 w.
Proof.
  unfold hok2b. intros H.
  apply andb_prop in H as (H & Hled). apply andb_prop in H as (H & Hacc). apply andb_prop in H as (H & Hbanks).
  apply andb_prop in H as (Hr0 & Hr1).
  rewrite forallb_forall in Hbanks. rewrite forallb_forall in Hacc.
  unfold HOk2. split; [unfold pf_ok; lia|]. split.
  - unfold HLedger, bw_of. constructor; cbn [bw_accts bw_banks].
    + apply Forall_forall. intros la Hin. apply in_map_iff in Hin as (ac & <- & Hin).
      specialize (Hacc ac Hin). rewrite forallb_forall in Hacc. apply Forall_forall. intros bl Hbl.
      specialize (Hacc bl Hbl). unfold wf_balb in Hacc. unfold wf_bal. lia.
    + apply Forall_forall. intros b Hin. apply in_map_iff in Hin as (hb & <- & Hin).
      destruct (hb_okb_sound hb (Hbanks hb Hin)) as (Hok & _). exact (hb_ok_sv _ Hok).
    + intros k bk Hk. unfold bank_of in Hk. cbn [bw_banks] in Hk. rewrite nth_error_map in Hk.
      destruct (nth_error (hw_banks w) k) as [hb|] eqn:E; [|discriminate]. apply Some_inj in Hk. subst bk.
      exact (ledger_okb_sound _ 0%nat _ Hled k hb E).
  - intros b hb Hb. apply hb_okb_sound. apply Hbanks. apply nth_res_ok in Hb. eapply nth_error_In; eauto.
Qed.
