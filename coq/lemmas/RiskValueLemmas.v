(* RiskValueLemmas.v — the fixed-point arithmetic of Risk.calc_value / Risk.calc_amount: each as an
   integer formula, its sign and its distance from the exact rational. *)
Require Import Base Constants Fixed Curve Bank Risk NumLemmas FixedLemmas BankLemmas.
From Coq Require Import ZifyBool Zquot.
Local Open Scope Z_scope.

Lemma exp10_fx_inv d sf : exp10_fx d = Ok sf -> 0 <= d < 24 /\ sf = 10 ^ d * ONE.
Proof.
  unfold exp10_fx. change (Z.of_nat (length EXP_10_I80F48)) with 24.
  destruct ((0 <=? d) && (d <? 24)) eqn:E; [|discriminate]. intros H. apply Ok_inj in H as <-.
  split; [lia|]. rewrite (nth_error_nth _ _ _ (exp10_table (Z.to_nat d) ltac:(lia))), Z2Nat.id by lia. reflexivity.
Qed.

Lemma cdiv_inv_gen a b r : cdiv a b = Ok r -> b <> 0 /\ r = Z.quot (a * ONE) b.
Proof.
  unfold cdiv, div_raw. destruct (b =? 0) eqn:E; [discriminate|]. intros H.
  apply chko_inv in H as [-> _]. split; [lia | reflexivity].
Qed.

(* the three fixed-point steps of calc_value (for a zero amount the formula gives the 0 that is returned) *)
Lemma calc_value_inv a p d w v :
  calc_value a p d (Some w) = Ok v ->
  v = Z.quot ((a * w / ONE) * p / ONE * ONE) (10 ^ d * ONE) /\ (a <> 0 -> 0 <= d < 24).
Proof.
  unfold calc_value. destruct (Z.eqb_spec a 0) as [->|Ha]; intros H.
  { apply Ok_inj in H as <-. split; [reflexivity | congruence]. }
  apply bind_ok in H as (sf & Hsf & H). apply exp10_fx_inv in Hsf as [Hd ->].
  apply bind_ok in H as (wa & Hwa & H).
  destruct (cmul a w) as [x|] eqn:Ex; [|discriminate]. apply Ok_inj in Hwa as <-.
  apply cmul_inv in Ex as [-> _].
  apply bind_ok in H as (y & Hy & H). apply math_ok, cmul_inv in Hy as [-> _].
  apply math_ok, cdiv_inv_gen in H as [_ ->]. split; [reflexivity | intros _; exact Hd].
Qed.

Lemma three_floors O sf aw p :
  0 < O -> 0 < sf -> 0 <= aw -> 0 <= p ->
  let v := aw / O * p / O * O / sf in
  0 <= v /\ v * sf * O <= aw * p /\ aw * p < (v + 1) * sf * O + O * O + O * p.
Proof.
  intros HO Hsf Haw Hp. set (x1 := aw / O). set (x2 := x1 * p / O). intros v.
  assert (Hx1 : 0 <= x1) by (apply Z.div_pos; lia).
  assert (Hx2 : 0 <= x2) by (apply Z.div_pos; nia).
  assert (Hv : 0 <= v) by (apply Z.div_pos; nia).
  pose proof (Z.mul_div_le aw O HO) as L1. pose proof (Z.mul_succ_div_gt aw O HO) as U1. fold x1 in L1, U1.
  pose proof (Z.mul_div_le (x1 * p) O HO) as L2. pose proof (Z.mul_succ_div_gt (x1 * p) O HO) as U2. fold x2 in L2, U2.
  pose proof (Z.mul_div_le (x2 * O) sf Hsf) as L3. pose proof (Z.mul_succ_div_gt (x2 * O) sf Hsf) as U3. fold v in L3, U3.
  split; [exact Hv|]. split.
  - assert (v * sf * O <= x1 * p * O) by nia. nia.
  - assert (aw * p <= (x1 + 1) * O * p) by nia.
    assert (x1 * p * O < (x2 + 1) * O * O) by nia.
    assert (x2 * O * O < (v + 1) * sf * O) by nia. nia.
Qed.

(* distance between calc_value and the exact rational amount*weight*price/10^dec: the result never
   exceeds it and falls short of it by less than 1 + (1 + price)/10^dec units in the last place
   (one floor per step). All quantities raw I80F48 bits: exact value = a*w*p / (2^48 * 10^d * 2^48). *)
Theorem calc_value_bound a p d w v :
  0 <= a -> 0 <= w -> 0 <= p -> calc_value a p d (Some w) = Ok v ->
  0 <= v /\
  v * (10 ^ d * 2^48) * 2^48 <= a * w * p /\
  a * w * p < (v + 1) * (10 ^ d * 2^48) * 2^48 + 2^48 * 2^48 + 2^48 * p.
Proof.
  intros Ha Hw Hp H. change (2^48) with ONE. pose proof ONE_pos as HO.
  apply calc_value_inv in H as [-> Hd]. destruct (Z.eq_dec a 0) as [->|Hne].
  { assert (0 <= 10 ^ d) by (apply Z.pow_nonneg; lia). cbn [Z.mul Z.div Z.quot Z.div_eucl Z.quotrem fst]. nia. }
  pose proof (pow10_pos d ltac:(lia)) as H10.
  assert (Haw : 0 <= a * w) by nia. assert (Hsf : 0 < 10 ^ d * ONE) by nia.
  rewrite Z.quot_div_nonneg; [exact (three_floors ONE _ _ p HO Hsf Haw Hp) | | lia].
  apply Z.mul_nonneg_nonneg; [|lia]. apply Z.div_pos; [|lia]. apply Z.mul_nonneg_nonneg; [|lia]. apply Z.div_pos; lia.
Qed.

Lemma calc_amount_inv v p d q :
  0 <= v -> 0 < p -> calc_amount v p d = Ok q ->
  0 <= d < 24 /\ q = (v * (10 ^ d * ONE) / ONE) * ONE / p /\ 0 <= q.
Proof.
  intros Hv Hp. unfold calc_amount. intros H.
  apply bind_ok in H as (sf & Hsf & H). apply exp10_fx_inv in Hsf as [Hd ->].
  apply bind_ok in H as (x & Hx & H). apply math_ok, cmul_inv in Hx as [-> _].
  pose proof ONE_pos as HO. pose proof (pow10_pos d ltac:(lia)) as H10.
  assert (Hx0 : 0 <= v * (10 ^ d * ONE) / ONE) by (apply Z.div_pos; nia).
  apply math_ok in H. apply cdiv_inv_nonneg in H; [|exact Hx0|exact Hp]. destruct H as [-> Hq].
  split; [exact Hd|]. split; [reflexivity | lia].
Qed.

(* calc_amount is exact up to one floor: q = floor(value * 10^dec * 2^48 / price) *)
Theorem calc_amount_bound v p d q :
  0 <= v -> 0 < p -> calc_amount v p d = Ok q ->
  0 <= q /\ q * p <= v * 10 ^ d * 2^48 < (q + 1) * p.
Proof.
  intros Hv Hp H. destruct (calc_amount_inv _ _ _ _ Hv Hp H) as (Hd & -> & Hq). change (2^48) with ONE.
  pose proof ONE_pos as HO. replace (v * (10 ^ d * ONE) / ONE) with (v * 10 ^ d) in *
    by (rewrite Z.mul_assoc, Z.div_mul by lia; reflexivity).
  split; [exact Hq|].
  pose proof (Z.mul_div_le (v * 10 ^ d * ONE) p Hp). pose proof (Z.mul_succ_div_gt (v * 10 ^ d * ONE) p Hp). lia.
Qed.

(* a value turned back into an amount, as the liquidation does for its two quantities, is not negative *)
Lemma liq_qty_nonneg n ap lp da dl D v q :
  0 < n -> 0 <= D -> 0 < ap -> 0 < lp ->
  calc_value (of_int n) ap da (Some D) = Ok v -> calc_amount v lp dl = Ok q -> 0 <= q.
Proof.
  intros Hn HD Hap Hlp Hv Hq. assert (Hn0 : 0 <= of_int n) by (unfold of_int; pose proof ONE_pos; nia).
  destruct (calc_value_bound _ _ _ _ _ Hn0 HD (Z.lt_le_incl _ _ Hap) Hv) as (Hv0 & _).
  apply (calc_amount_inv _ _ _ _ Hv0 Hlp Hq).
Qed.
