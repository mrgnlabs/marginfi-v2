(* FreshnessHandlers.v — C06, second sentence, at instruction level: every fund-moving handler first accrues
   the interest of each bank it transacts in up to the current time, runs its accounting on the accrued bank,
   and leaves the bank stamped with the current time.
   The argument is the same for every handler: the accrual stamps the bank with the clock; none of the accounting
   primitives writes the stamp or a share value; the cache refresh can only rewrite the stamp with the same clock. *)
Require Import Base Constants Fixed Curve Bank BankOps Risk TransferFee Handlers.
Require Import FixedLemmas BankLemmas AccrualLemmas HandlerLemmas SolvencyLemmas HandlerEffects HandlerWorld.
Require Import BankruptcyLemmas.
Local Open Scope Z_scope.

(* the bank after the handler: stamped with the clock, liability share value = the accrued one,
   asset share value = the accrued one (bankruptcy may lower it by socialising the loss) *)
Definition fresh_after (w : hworld) (hb hb' : hbank) (asv_may_drop : bool) : Prop :=
  exists bk1, accrue_interest (hb_b hb) (hw_pf w) (hw_now w) = Ok bk1 /\
    b_last_update (hb_b hb') = hw_now w /\ b_lsv (hb_b hb') = b_lsv bk1 /\
    (if asv_may_drop then b_asv (hb_b hb') <= b_asv bk1 else b_asv (hb_b hb') = b_asv bk1).

(* the stamp and the two share values *)
Definition priced (b : bank) : Z * fx * fx := (b_last_update b, b_asv b, b_lsv b).

(* the accounting primitives write neither *)
Lemma priced_increase b bl now delta t b' bl' : increase_balance b bl now delta t = Ok (b', bl') -> priced b' = priced b.
Proof. intros H. apply increase_balance_shape in H as (rem & em & tas & tls & lc & bc & a & l & -> & _). reflexivity. Qed.
Lemma priced_decrease b bl now delta t b' bl' : decrease_balance b bl now delta t = Ok (b', bl') -> priced b' = priced b.
Proof. intros H. apply decrease_balance_shape in H as (rem & em & tas & tls & lc & bc & a & l & -> & _). reflexivity. Qed.
Lemma priced_withdraw_all b bl now b' bl' n : withdraw_all b bl now = Ok (b', bl', n) -> priced b' = priced b.
Proof. intros H. apply withdraw_all_shape in H as (rem & tas & ins & -> & _). reflexivity. Qed.
Lemma priced_repay_all b bl now b' bl' n : repay_all b bl now = Ok (b', bl', n) -> priced b' = priced b.
Proof. intros H. apply repay_all_shape in H as (rem & tls & ins & -> & _). reflexivity. Qed.
Lemma priced_close_balance b bl now b' bl' : close_balance b bl now = Ok (b', bl') -> priced b' = priced b.
Proof. intros H. apply close_balance_shape in H as (rem & -> & _). reflexivity. Qed.

Lemma priced_mark b : priced (mark_tokenless_complete b) = priced b.
Proof. unfold mark_tokenless_complete. destruct (_ && _); reflexivity. Qed.

Lemma priced_book_orig_fee pf ofee b b' : book_orig_fee pf ofee b = Ok b' -> priced b' = priced b.
Proof.
  intros H. destruct (book_orig_fee_cases _ _ _ _ H) as [-> | [-> | ->]]; reflexivity.
Qed.

(* on a bank already stamped with the clock the cache refresh changes nothing here *)
Lemma priced_cache b pf now b' : update_bank_cache b pf now = Ok b' -> b_last_update b = now -> priced b' = priced b.
Proof. intros H U. apply update_bank_cache_core in H as [-> | ->]; [reflexivity|]. unfold priced. cbn. rewrite U. reflexivity. Qed.

Lemma accrue_stamp hb pf now bk1 : hb_ok hb -> accrue_interest (hb_b hb) pf now = Ok bk1 -> b_last_update bk1 = now.
Proof.
  intros ((A & L & Ta & Tl) & _) H. pose proof (accrue_monotone _ _ _ _ A L Ta Tl H) as (_ & _ & _ & _ & _ & _ & _ & _ & U). exact U.
Qed.

Lemma fresh_of_priced w hb bk1 hb' :
  hb_ok hb -> accrue_interest (hb_b hb) (hw_pf w) (hw_now w) = Ok bk1 -> priced (hb_b hb') = priced bk1 ->
  fresh_after w hb hb' false.
Proof.
  intros Hok Hacc P. pose proof (accrue_stamp _ _ _ _ Hok Hacc) as U. unfold priced in P.
  exists bk1. repeat split; congruence.
Qed.

(* accrual, accounting that leaves stamp and share values alone, cache refresh *)
Lemma fresh_through w hb bk1 bk2 bk3 hb' :
  hb_ok hb -> accrue_interest (hb_b hb) (hw_pf w) (hw_now w) = Ok bk1 -> priced bk2 = priced bk1 ->
  update_bank_cache bk2 (hw_pf w) (hw_now w) = Ok bk3 -> hb_b hb' = bk3 -> fresh_after w hb hb' false.
Proof.
  intros Hok Hacc P Hcache <-. apply (fresh_of_priced _ _ _ _ Hok Hacc).
  rewrite <- P. apply (priced_cache _ _ _ _ Hcache).
  pose proof (accrue_stamp _ _ _ _ Hok Hacc) as U. unfold priced in P. congruence.
Qed.

Theorem deposit_fresh w a b n up w' hb hb' :
  HOk2 w -> 0 <= n -> h_deposit w a b n up = Ok w' -> nth_bank w b = Ok hb -> nth_bank w' b = Ok hb' -> fresh_after w hb hb' false.
Proof.
  intros H2 Hn H Hb Hb'.
  destruct (h_deposit_effect _ _ _ _ _ _ H) as (hb0 & hb0' & ac & ac' & E & F).
  destruct (eff1_at _ _ _ _ _ _ _ _ _ _ E Hb Hb') as (-> & ->). pose proof (HOk2_hb_ok _ _ _ H2 Hb) as Hok.
  destruct F as (bk1 & dep & Hacc & _ & _ & _ & [(_ & -> & _) | (_ & i & la1 & bl & bk2 & bl2 & pre & f & bk3 & _ & _ & Hinc & _ & _ & Hcache & -> & _)]).
  - apply (fresh_of_priced _ _ _ _ Hok Hacc). reflexivity.
  - apply (fresh_through _ _ _ _ _ _ Hok Hacc (priced_increase _ _ _ _ _ _ _ Hinc) Hcache). reflexivity.
Qed.

Theorem withdraw_fresh w a b n all w' hb hb' :
  HOk2 w -> 0 <= n -> h_withdraw w a b n all = Ok w' -> nth_bank w b = Ok hb -> nth_bank w' b = Ok hb' -> fresh_after w hb hb' false.
Proof.
  intros H2 Hn H Hb Hb'.
  destruct (h_withdraw_effect _ _ _ _ _ _ H) as (hb0 & hb0' & ac & ac' & E & F).
  destruct (eff1_at _ _ _ _ _ _ _ _ _ _ E Hb Hb') as (-> & ->). pose proof (HOk2_hb_ok _ _ _ H2 Hb) as Hok.
  destruct F as (bk1 & i & bl & bk2 & bl2 & pre & paid & bk3 & Hacc & _ & _ & _ & Hprim & _ & _ & Hcache & -> & _).
  apply (fresh_through _ _ _ _ _ _ Hok Hacc) with (2 := Hcache); [|reflexivity].
  destruct all; [exact (priced_withdraw_all _ _ _ _ _ _ Hprim) | exact (priced_decrease _ _ _ _ _ _ _ (proj2 Hprim))].
Qed.

Theorem borrow_fresh w a b n w' hb hb' :
  HOk2 w -> 0 <= n -> h_borrow w a b n = Ok w' -> nth_bank w b = Ok hb -> nth_bank w' b = Ok hb' -> fresh_after w hb hb' false.
Proof.
  intros H2 Hn H Hb Hb'.
  destruct (h_borrow_effect _ _ _ _ _ H) as (hb0 & hb0' & ac & ac' & E & F).
  destruct (eff1_at _ _ _ _ _ _ _ _ _ _ E Hb Hb') as (-> & ->). pose proof (HOk2_hb_ok _ _ _ H2 Hb) as Hok.
  destruct F as (bk1 & i & la1 & bl & pre & delta & ofee & bk2 & bl2 & bk4 & bk5 & Hacc & _ & _ & _ & _ & _ & _ & _ & Hdec & _ & Hbook & Hcache & -> & _).
  apply (fresh_through _ _ _ _ _ _ Hok Hacc) with (2 := Hcache); [|reflexivity].
  exact (eq_trans (priced_book_orig_fee _ _ _ _ Hbook) (priced_decrease _ _ _ _ _ _ _ Hdec)).
Qed.

Theorem repay_fresh w a b n all w' hb hb' :
  HOk2 w -> 0 <= n -> h_repay w a b n all = Ok w' -> nth_bank w b = Ok hb -> nth_bank w' b = Ok hb' -> fresh_after w hb hb' false.
Proof.
  intros H2 Hn H Hb Hb'.
  destruct (h_repay_effect _ _ _ _ _ _ H) as (hb0 & hb0' & ac & ac' & E & F).
  destruct (eff1_at _ _ _ _ _ _ _ _ _ _ E Hb Hb') as (-> & ->). pose proof (HOk2_hb_ok _ _ _ H2 Hb) as Hok.
  destruct F as (bk1 & i & bl & bk2 & bl2 & post & V' & bk5 & Hacc & _ & _ & _ & Hprim & _ & Hcache & -> & _).
  apply (fresh_through _ _ _ _ _ _ Hok Hacc) with (2 := Hcache); [|reflexivity].
  rewrite priced_mark.
  destruct all; [exact (priced_repay_all _ _ _ _ _ _ Hprim) | exact (priced_increase _ _ _ _ _ _ _ (proj2 Hprim))].
Qed.

(* here the cache is refreshed before the accounting *)
Theorem close_balance_fresh w a b w' hb hb' :
  HOk2 w -> h_close_balance w a b = Ok w' -> nth_bank w b = Ok hb -> nth_bank w' b = Ok hb' -> fresh_after w hb hb' false.
Proof.
  intros H2 H Hb Hb'.
  destruct (h_close_balance_effect _ _ _ _ H) as (hb0 & hb0' & ac & ac' & E & F).
  destruct (eff1_at _ _ _ _ _ _ _ _ _ _ E Hb Hb') as (-> & ->). pose proof (HOk2_hb_ok _ _ _ H2 Hb) as Hok.
  destruct F as (bk1 & bk2 & i & bl & bk3 & bl3 & Hacc & _ & Hcache & _ & _ & Hcl & -> & _).
  apply (fresh_of_priced _ _ _ _ Hok Hacc). cbn [set_hb_b hb_b].
  rewrite (priced_close_balance _ _ _ _ _ Hcl). exact (priced_cache _ _ _ _ Hcache (accrue_stamp _ _ _ _ Hok Hacc)).
Qed.

(* between accrual and cache refresh the loss is socialised: the asset share value may fall *)
Theorem bankruptcy_fresh w a b w' hb hb' :
  HOk2 w -> h_bankruptcy w a b = Ok w' -> nth_bank w b = Ok hb -> nth_bank w' b = Ok hb' -> fresh_after w hb hb' true.
Proof.
  intros H2 H Hb Hb'.
  destruct (h_bankruptcy_effect _ _ _ _ H) as (hb0 & hb0' & ac & ac' & (_ & Ha & _) & _).
  destruct (bankruptcy_after _ _ _ _ _ _ H Hb Ha (hb_ok_sane _ (HOk2_hb_ok _ _ _ H2 Hb)) (acct_wf_of _ _ _ H2 Ha))
    as (hb1 & bk1 & i & bl & fi & bk2 & kill & bl3 & E & Hacc & _ & _ & _ & SF & _ & _ & (A5 & L5 & _) & U5).
  destruct (eff1_at _ _ _ _ _ _ _ _ _ _ E Hb Hb') as (_ & ->).
  exists bk1. split; [exact Hacc|]. split; [exact U5|]. split; [exact L5|].
  rewrite A5. exact (proj2 (sf_range _ _ _ _ SF)).
Qed.

Theorem liquidate_fresh w liqor liqee ab lb n w' ha hl ha' hl' :
  HOk2 w -> 0 <= n -> h_liquidate w liqor liqee ab lb n = Ok w' ->
  nth_bank w ab = Ok ha -> nth_bank w lb = Ok hl -> nth_bank w' ab = Ok ha' -> nth_bank w' lb = Ok hl' ->
  fresh_after w ha ha' false /\ fresh_after w hl hl' false.
Proof.
  intros H2 Hn H Ea El Ea' El'.
  destruct (liquidate_gen_inv positions _ _ _ _ _ _ _ (fun _ _ _ _ => eq_refl) H)
    as (ha0 & hl0 & ee & er & ba1 & bl1 & ps0 & ps1 & h0 & A0 & L0 & h1 & ap & lp & v1 & v2 & q_liq & q_fin & i1 & i2 & i3 & i4 & la1 & la3 &
        b1 & b1' & b2 & b2' & b3 & b3' & b4 & b4' & bl2 & ba2 & ba3 & bl3 & ee3 & er3 & ha0' & hl0' & f & ins_n & ba4 & bl5 & R).
  destruct R as [(Ea0 & El0) (_ & Hne & _) _ _ _ (Hacca & Haccl) _ _ _ (_ & _ & Hdec1) (_ & _ & _ & Hdec2) (_ & _ & Hinc3) (_ & _ & Hinc4)
                 _ (Hca & Hcl) -> -> _ _ -> _ _].
  rewrite Ea in Ea0. rewrite El in El0. apply Ok_inj in Ea0, El0. subst ha0 hl0.
  (* the two entries of the new bank list *)
  unfold nth_bank in Ea', El'. cbn [hw_banks] in Ea', El'.
  rewrite nth_res_set_other, (nth_res_set_same _ _ _ _ Ea) in Ea' by congruence.
  rewrite (nth_res_set_same _ _ _ hl) in El' by (rewrite nth_res_set_other by assumption; exact El).
  apply Ok_inj in Ea', El'. subst ha' hl'.
  split.
  - apply (fresh_through _ _ _ _ _ _ (HOk2_hb_ok _ _ _ H2 Ea) Hacca) with (2 := Hca); [|reflexivity].
    exact (eq_trans (priced_increase _ _ _ _ _ _ _ Hinc3) (priced_decrease _ _ _ _ _ _ _ Hdec2)).
  - apply (fresh_through _ _ _ _ _ _ (HOk2_hb_ok _ _ _ H2 El) Haccl) with (2 := Hcl); [|reflexivity].
    exact (eq_trans (priced_increase _ _ _ _ _ _ _ Hinc4) (priced_decrease _ _ _ _ _ _ _ Hdec1)).
Qed.
