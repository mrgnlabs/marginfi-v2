(* CapsHandlers.v — behind C17 at instruction level (props/C17.v).
   After a successful deposit / borrow / withdraw handler the bank it touched respects the deposit limit, the borrow
   limit and deposits >= debt: each handler runs one capped primitive on the accrued bank. The world invariant makes
   that bank and the slot well-formed, so the primitive's own cap theorem (ValueLemmas) applies; what the handler does
   to the bank afterwards (origination fee, cache refresh) touches neither totals, share values nor limits.
   A deposit flagged "up to limit" deposits at most the remaining capacity and never fails with
   BankAssetCapacityExceeded (the defect repaired by fix 0857a8b8 was exactly a failure of this): an amount within
   the remaining capacity of the bank never trips the cap in change_asset_shares, hence not in increase_balance
   (`nc r`, from CapErrLemmas: r is not Err (E E_BankAssetCapacityExceeded)). *)
Require Import Base Constants Fixed Curve Bank BankOps Risk TransferFee Handlers.
Require Import FixedLemmas BankLemmas ValueLemmas HandlerLemmas SolvencyLemmas HandlerEffects SolvencyHandlers HandlerWorld CapErrLemmas.
From Coq Require Import ZifyBool.
Local Open Scope Z_scope.

Definition deposits_of (b : bank) : Z := b_tas b * b_asv b / ONE.
Definition debt_of (b : bank) : Z := b_tls b * b_lsv b / ONE.

Lemma HOk2_accrued w b hb bk1 :
  HOk2 w -> nth_bank w b = Ok hb -> accrue_interest (hb_b hb) (hw_pf w) (hw_now w) = Ok bk1 ->
  hb_ok hb /\ wf_sv bk1 /\ b_tas bk1 = b_tas (hb_b hb) /\ b_tls bk1 = b_tls (hb_b hb).
Proof.
  intros H2 Hb Hacc. pose proof (HOk2_hb_ok _ _ _ H2 Hb) as Hok.
  destruct (accrue_tot _ _ _ _ Hok Hacc) as (T1 & T2 & S). auto.
Qed.

Lemma created_slot_wf k bk la now i la1 bl :
  wrapper_find_or_create k bk la now = Ok (i, la1) -> nth_res i la1 = Ok bl -> Forall wf_bal la -> wf_bal bl.
Proof. intros Hloc Hbl W. exact (nth_res_Forall _ _ _ _ Hbl (find_or_create_wf _ _ _ _ _ _ Hloc W)). Qed.

Definition caps_same (b b' : bank) : Prop :=
  deposits_of b' = deposits_of b /\ debt_of b' = debt_of b /\ b_tas b' = b_tas b /\ b_tls b' = b_tls b /\
  b_dep_limit b' = b_dep_limit b /\ b_bor_limit b' = b_bor_limit b.

Lemma caps_cache b pf now b' : update_bank_cache b pf now = Ok b' -> caps_same b b'.
Proof. intros H. apply update_bank_cache_core in H as [-> | ->]; repeat split; reflexivity. Qed.

Lemma caps_book_orig_fee pf ofee b b' : book_orig_fee pf ofee b = Ok b' -> caps_same b b'.
Proof.
  intros H. destruct (book_orig_fee_cases _ _ _ _ H) as [-> | [-> | ->]]; repeat split; reflexivity.
Qed.

Lemma nc_remaining_capacity b : nc (remaining_deposit_capacity b).
Proof. unfold remaining_deposit_capacity. nc_auto. Qed.
Lemma nc_xfer_in w a b n : nc (xfer_in w a b n).
Proof. unfold xfer_in, E_TOKEN_INSUFFICIENT. nc_auto. Qed.
Lemma nc_pre_fee hb n : nc (pre_fee hb n).
Proof. apply csimple_ng, csimple_pre_fee. Qed.
Lemma nc_nth_res {A} n (l : list A) : nc (nth_res n l).
Proof. apply csimple_ng, csimple_nth_res. Qed.

Lemma nc_change_asset_inactive b sh byp : b_dep_limit b = U64_MAX -> nc (change_asset_shares b sh byp).
Proof.
  intros Hl. unfold change_asset_shares. apply nc_bind_ok; [apply nc_math_simple; apply csimple_cadd|].
  intros tas' _. unfold dep_limit_active. cbn [set_b_tas b_dep_limit]. rewrite Hl, Z.eqb_refl. cbn [negb andb].
  rewrite Bool.andb_false_r. cbn [andb]. apply nc_ok.
Qed.

Lemma capacity_core_eq b b' : bank_same_core b b' -> remaining_deposit_capacity b' = remaining_deposit_capacity b.
Proof.
  intros (S1 & S2 & T1 & T2 & _ & _ & _ & _ & D & _ & Tg & Dc & _).
  unfold remaining_deposit_capacity, dep_limit_active, get_asset_amount, deposit_limit_fx. rewrite S1, T1, D, Tg, Dc. reflexivity.
Qed.

Lemma increase_deposit_nc bk1 bl t dep c :
  wf_sv bk1 -> 0 <= b_tas bk1 -> wf_bal bl -> b_asset_tag bk1 <> ASSET_TAG_DRIFT ->
  remaining_deposit_capacity bk1 = Ok c -> 0 < dep <= c ->
  nc (increase_balance bk1 bl t (of_int dep) IncDepositOnly).
Proof.
  intros Hsv Hta Hwf Htag Hcap Hdep. unfold increase_balance.
  apply nc_bind_ok; [apply nc_claim_emissions|]. intros [b0 bl0] Hc. cbv beta iota.
  destruct (claim_emissions_core _ _ _ _ _ Hc) as (Cb & Cl).
  pose proof (capacity_core_eq _ _ Cb) as Hcap0. rewrite Hcap in Hcap0.
  destruct Cb as (S1 & S2 & T1 & T2 & _ & _ & _ & _ & D & _ & Tg & _). destruct Cl as (_ & _ & _ & A1 & A2).
  destruct Hsv as (Ha & Hl). destruct Hwf as (Wa & Wl). pose proof ONE_pos as HO.
  apply nc_bind_ok; [apply nc_get_liability_amount|]. intros cur_l Hcl. apply get_liability_amount_inv in Hcl.
  assert (Hcl0 : 0 <= cur_l) by (rewrite Hcl; apply Z.div_pos; [nia|lia]).
  apply nc_bind_ok; [apply nc_math_simple, csimple_csub|]. intros d0 Hd0. apply math_ok, csub_inv in Hd0 as [Hd0 _].
  apply nc_bind_ok; [apply nc_check; cne_err|]. intros u _.
  apply nc_bind_ok; [apply nc_get_asset_shares|]. intros ash Hash.
  assert (Hod : 0 <= of_int dep) by (unfold of_int; nia).
  assert (Hainc : 0 <= fmax d0 0 <= of_int dep) by (unfold fmax; lia).
  assert (Hshares : 0 <= ash /\ ash * b_asv b0 <= of_int dep * ONE).
  { unfold get_asset_shares in Hash. destruct (b_asv b0 =? 0) eqn:E0.
    - apply Ok_inj in Hash. subst ash. unfold of_int. nia.
    - apply math_ok in Hash. apply cdiv_inv_nonneg in Hash as [-> _]; [|lia|lia].
      assert (0 < b_asv b0) by lia.
      split; [apply Z.div_pos; nia|]. rewrite Z.mul_comm. pose proof (Z.mul_div_le (fmax d0 0 * ONE) (b_asv b0) ltac:(lia)). nia. }
  destruct Hshares as (Hs0 & Hs1).
  apply nc_bind_ok; [apply nc_math_simple, csimple_cadd|]. intros a' _.
  apply nc_bind_ok.
  { destruct (Z.eq_dec (b_dep_limit b0) U64_MAX) as [El|Nl]; [apply nc_change_asset_inactive; exact El|].
    eapply (capacity_safe b0 c dep ash); try eassumption; lia. }
  intros b1 _.
  apply nc_bind_ok; [apply nc_get_liability_shares|]. intros lsh _.
  apply nc_bind_ok; [apply csimple_ng, csimple_uneg|]. intros nl _.
  apply nc_bind_ok; [apply nc_math_simple, csimple_cadd|]. intros l' _.
  apply nc_bind_ok; [apply nc_change_liability_shares|]. intros b2 _. apply nc_ok.
Qed.

Lemma marginfi_tag_not_drift t : is_marginfi_tag t = true -> t <> ASSET_TAG_DRIFT.
Proof.
  intros H E. subst t. discriminate H.
Qed.
