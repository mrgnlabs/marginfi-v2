(* LedgerLemmas.v — C02: the ledger invariant (bank totals are at least the sum of all positions) of the level-B world
   (several banks, several lending accounts) survives every operation (bstep_ledger, with the exact change of every
   excess); the induction over sequences is in props/C02.v.  moves_with is the form in which the instruction handlers
   hand the same argument their own steps. *)
Require Import Base Constants Fixed Curve Bank BankOps Risk TransferFee Handlers.
Require Import FixedLemmas BankLemmas ValueLemmas AccrualLemmas HandlerLemmas SolvencyLemmas.
From Coq Require Import ZifyBool.
Local Open Scope Z_scope.

(* contribution of one balance slot to bank key k *)
Definition ca (k : Z) (bl : balance) : Z := if bl_active bl && (bl_bank bl =? k) then bl_a bl else 0.
Definition cl (k : Z) (bl : balance) : Z := if bl_active bl && (bl_bank bl =? k) then bl_l bl else 0.

Fixpoint lsum (f : balance -> Z) (la : laccount) : Z :=
  match la with [] => 0 | x :: r => f x + lsum f r end.
Fixpoint wsum (f : balance -> Z) (accts : list laccount) : Z :=
  match accts with [] => 0 | la :: r => lsum f la + wsum f r end.

Lemma lsum_set_nth f la i bl v : nth_error la i = Some bl -> lsum f (set_nth i v la) = lsum f la - f bl + f v.
Proof.
  revert i; induction la as [|x r IH]; intros [|i] H; cbn in *; try discriminate.
  - inversion H; subst. lia.
  - rewrite (IH _ H). lia.
Qed.
Lemma wsum_set_nth f accts a la v : nth_error accts a = Some la -> wsum f (set_nth a v accts) = wsum f accts - lsum f la + lsum f v.
Proof.
  revert a; induction accts as [|x r IH]; intros [|a] H; cbn in *; try discriminate.
  - inversion H; subst. lia.
  - rewrite (IH _ H). lia.
Qed.
Lemma lsum_insert f x l : lsum f (insert_desc x l) = f x + lsum f l.
Proof. induction l as [|y ys IH]; cbn; [lia|]. destruct (bl_bank y <? bl_bank x); cbn; lia. Qed.
Lemma lsum_sort f l : lsum f (sort_balances l) = lsum f l.
Proof. unfold sort_balances. induction l as [|x r IH]; cbn; [reflexivity|]. rewrite lsum_insert. lia. Qed.

(* find_active *)
Lemma find_idx_spec f la : forall n i, find_idx f la n = Some i ->
  exists bl, nth_error la (i - n) = Some bl /\ f bl = true /\ (n <= i)%nat.
Proof.
  induction la as [|x r IH]; intros n i H; cbn in H; [discriminate|].
  destruct (f x) eqn:E.
  - inversion H; subst. exists x. replace (i - i)%nat with 0%nat by lia. cbn. auto.
  - apply IH in H as (bl & H1 & H2 & H3). exists bl.
    replace (i - n)%nat with (S (i - S n))%nat by lia. cbn. split; [exact H1|]. split; [exact H2 | lia].
Qed.
Lemma find_active_spec k la i : find_active k la = Some i ->
  exists bl, nth_error la i = Some bl /\ bl_active bl = true /\ bl_bank bl = k.
Proof.
  unfold find_active. intros H. apply find_idx_spec in H as (bl & H1 & H2 & _).
  rewrite Nat.sub_0_r in H1. exists bl. split; [exact H1|]. lia.
Qed.

Lemma find_idx_set_same (f : balance -> bool) la : forall n i bl',
  find_idx f la n = Some i -> f bl' = true ->
  find_idx f (set_nth (i - n) bl' la) n = Some i.
Proof.
  induction la as [|x r IH]; intros n i bl' H Hf; cbn [find_idx] in H; [discriminate|].
  destruct (f x) eqn:E.
  - inversion H; subst. replace (i - i)%nat with 0%nat by lia. cbn [set_nth find_idx]. rewrite Hf. reflexivity.
  - pose proof (find_idx_spec _ _ _ _ H) as (_ & _ & _ & Hle).
    replace (i - n)%nat with (S (i - S n))%nat by lia. cbn [set_nth find_idx]. rewrite E. apply IH; assumption.
Qed.

Lemma find_active_set_same k la i bl' :
  find_active k la = Some i -> bl_active bl' = true -> bl_bank bl' = k ->
  find_active k (set_nth i bl' la) = Some i.
Proof.
  unfold find_active. intros H Ha Hb.
  pose proof (find_idx_set_same _ la 0 i bl' H) as F. rewrite Nat.sub_0_r in F. apply F. lia.
Qed.

(* the invariant *)
Definition bank_of (w : bworld) (k : nat) : option bank := nth_error (bw_banks w) k.

Record Ledger (w : bworld) : Prop := {
  lg_wf : Forall (Forall wf_bal) (bw_accts w);
  lg_sv : Forall wf_sv (bw_banks w);
  lg_tot : forall k bk, bank_of w k = Some bk ->
           wsum (ca (bank_pk k)) (bw_accts w) <= b_tas bk /\ wsum (cl (bank_pk k)) (bw_accts w) <= b_tls bk
}.

Lemma wf_nonneg_ca k bl : wf_bal bl -> 0 <= ca k bl /\ 0 <= cl k bl.
Proof. intros [? ?]. unfold ca, cl. destruct (bl_active bl && (bl_bank bl =? k)); lia. Qed.

Lemma bank_pk_inj a b : bank_pk a = bank_pk b -> a = b.
Proof. unfold bank_pk. lia. Qed.

Lemma Some_inj {A} (x y : A) : Some x = Some y -> x = y.
Proof. congruence. Qed.

(* slot i of la1 is the one a wrapper call for key k works on: the active slot found in la, or a free slot of la opened
   for k (then la1 is la with that slot initialised) *)
Definition located (k : Z) (la : laccount) (i : nat) (la1 : laccount) : Prop :=
  (wrapper_find k la = Ok i /\ la1 = la) \/ exists bk now, wrapper_find_or_create k bk la now = Ok (i, la1).

Lemma located_find k la i : wrapper_find k la = Ok i -> located k la i la.
Proof. intros H. left. auto. Qed.
Lemma located_create k bk la now i la1 : wrapper_find_or_create k bk la now = Ok (i, la1) -> located k la i la1.
Proof. intros H. right. eauto. Qed.
(* the way with_slot locates *)
Lemma located_slot k bk la now (create : bool) i la1 :
  (if create then wrapper_find_or_create k bk la now else let* i := wrapper_find k la in Ok (i, la)) = Ok (i, la1) ->
  located k la i la1.
Proof.
  destruct create; [apply located_create|]. intros H. bind_inv H as j Hj. apply pair_ok in H as [<- <-]. exact (located_find _ _ _ Hj).
Qed.

Lemma slot_located k la i la1 bl :
  located k la i la1 -> nth_res i la1 = Ok bl -> Forall wf_bal la ->
  bl_active bl = true /\ bl_bank bl = k /\ wf_bal bl /\ Forall wf_bal la1 /\
  (forall kk, lsum (ca kk) la1 = lsum (ca kk) la /\ lsum (cl kk) la1 = lsum (cl kk) la).
Proof.
  intros H Hn Hf. apply nth_res_ok in Hn.
  assert (Hfound : forall j, find_active k la = Some j -> j = i -> la1 = la ->
            bl_active bl = true /\ bl_bank bl = k /\ wf_bal bl /\ Forall wf_bal la1 /\
            (forall kk, lsum (ca kk) la1 = lsum (ca kk) la /\ lsum (cl kk) la1 = lsum (cl kk) la)).
  { intros j Hj -> ->. apply find_active_spec in Hj as (bl0 & H1 & H2 & H3). rewrite Hn in H1. apply Some_inj in H1 as <-.
    split; [exact H2|]. split; [exact H3|]. split; [eapply Forall_nth_error; eauto|]. split; [exact Hf|]. intros kk; split; reflexivity. }
  destruct H as [(H & ->) | (bk & now & H)].
  - unfold wrapper_find in H. destruct (find_active k la) as [j|] eqn:Ej; [|discriminate].
    apply Ok_inj in H as <-. eapply Hfound; eauto.
  - unfold wrapper_find_or_create in H. destruct (find_active k la) as [j|] eqn:Ej.
    + apply pair_ok in H as [<- <-]. eapply Hfound; eauto.
    + bind_inv H as u _. destruct (find_idx _ la 0) as [j|] eqn:Ei; [|discriminate].
      apply pair_ok in H as [<- <-]. apply find_idx_spec in Ei as (bl0 & H1 & H2 & _). rewrite Nat.sub_0_r in H1.
      rewrite (nth_set_nth_same _ _ _ _ H1) in Hn. apply Some_inj in Hn as <-.
      cbn [bl_active bl_bank]. split; [reflexivity|]. split; [reflexivity|]. split; [unfold wf_bal; cbn; lia|].
      split; [apply Forall_set_nth; [exact Hf|]; unfold wf_bal; cbn; lia|].
      (* an inactive slot is replaced by an active one without shares *)
      assert (E0 : bl_active bl0 = false) by (destruct (bl_active bl0); [discriminate|reflexivity]).
      intros kk. rewrite !(lsum_set_nth _ _ _ _ _ H1). unfold ca, cl. cbn [bl_active bl_bank bl_a bl_l]. rewrite E0. cbn [andb].
      split; destruct (k =? kk); lia.
Qed.

(* what one wrapper primitive must guarantee for the ledger *)
(* da / dl : shares of the position that the primitive abandons in the bank totals *)
Definition slot_ok (kk : Z) (bk : bank) (bl : balance) (bk' : bank) (bl' : balance) (da dl : Z) : Prop :=
  wf_sv bk' /\ wf_bal bl' /\
  (forall k, k <> kk -> ca k bl' = 0 /\ cl k bl' = 0) /\
  b_tas bk' - ca kk bl' = b_tas bk - ca kk bl + da /\ b_tls bk' - cl kk bl' = b_tls bk - cl kk bl + dl /\
  0 <= da /\ 0 <= dl.

Lemma ca_other k bl : bl_active bl = true -> bl_bank bl <> k -> ca k bl = 0 /\ cl k bl = 0.
Proof. intros H1 H2. unfold ca, cl. rewrite H1. cbn [andb]. replace (bl_bank bl =? k) with false by lia. auto. Qed.
Lemma ca_self bl : bl_active bl = true -> ca (bl_bank bl) bl = bl_a bl /\ cl (bl_bank bl) bl = bl_l bl.
Proof. intros H1. unfold ca, cl. rewrite H1, Z.eqb_refl. auto. Qed.
Lemma ca_empty k : ca k bal_empty = 0 /\ cl k bal_empty = 0.
Proof. split; reflexivity. Qed.

(* a primitive that keeps the slot's identity and moves totals exactly with the position *)
Lemma slot_ok_same kk bk bl bk' bl' :
  bl_active bl = true -> bl_bank bl = kk -> wf_sv bk' -> wf_bal bl' ->
  bl_active bl' = bl_active bl -> bl_bank bl' = bl_bank bl ->
  b_tas bk' - b_tas bk = bl_a bl' - bl_a bl -> b_tls bk' - b_tls bk = bl_l bl' - bl_l bl ->
  slot_ok kk bk bl bk' bl' 0 0.
Proof.
  intros Ha Hb Hsv Hwf Ha' Hb' Hta Htl. unfold slot_ok. split; [exact Hsv|]. split; [exact Hwf|].
  rewrite <- Hb. destruct (ca_self bl Ha) as [-> ->].
  assert (Ha2 : bl_active bl' = true) by congruence.
  rewrite <- Hb'. destruct (ca_self bl' Ha2) as [-> ->]. split; [|lia].
  intros k Hk. apply ca_other; congruence.
Qed.
(* a primitive that closes the slot *)
Lemma slot_ok_closed kk bk bl bk' :
  bl_active bl = true -> bl_bank bl = kk -> wf_sv bk' -> wf_bal bl ->
  b_tas bk - bl_a bl <= b_tas bk' -> b_tls bk - bl_l bl <= b_tls bk' ->
  slot_ok kk bk bl bk' bal_empty (b_tas bk' - (b_tas bk - bl_a bl)) (b_tls bk' - (b_tls bk - bl_l bl)).
Proof.
  intros Ha Hb Hsv Hwf Hta Htl. unfold slot_ok. split; [exact Hsv|]. split; [unfold wf_bal; cbn; lia|].
  rewrite <- Hb. destruct (ca_self bl Ha) as [-> ->]. destruct (ca_empty (bl_bank bl)) as [-> ->].
  split; [|lia]. intros k _. apply ca_empty.
Qed.

(* ------------------------------------------------------------------------------------------ *)
Lemma lsum_nonneg_ca k la : Forall wf_bal la -> 0 <= lsum (ca k) la /\ 0 <= lsum (cl k) la.
Proof. induction 1 as [|x r Hx _ IH]; cbn [lsum]; [lia|]. pose proof (wf_nonneg_ca k x Hx). lia. Qed.
Lemma wsum_nonneg_ca k accts : Forall (Forall wf_bal) accts -> 0 <= wsum (ca k) accts /\ 0 <= wsum (cl k) accts.
Proof. induction 1 as [|x r Hx _ IH]; cbn [wsum]; [lia|]. pose proof (lsum_nonneg_ca k x Hx). lia. Qed.

(* a slot is at most its account's sum, an account's sum at most the world's *)
Lemma lsum_ge_member k la bl : Forall wf_bal la -> In bl la -> ca k bl <= lsum (ca k) la /\ cl k bl <= lsum (cl k) la.
Proof.
  induction 1 as [|x r Hx Hr IH]; intros Hin; [destruct Hin|]. cbn [lsum].
  pose proof (wf_nonneg_ca k x Hx). pose proof (lsum_nonneg_ca k r Hr).
  destruct Hin as [<-|Hin]; [lia|]. specialize (IH Hin). lia.
Qed.
Lemma wsum_ge_member k accts la : Forall (Forall wf_bal) accts -> In la accts ->
  lsum (ca k) la <= wsum (ca k) accts /\ lsum (cl k) la <= wsum (cl k) accts.
Proof.
  induction 1 as [|x r Hx Hr IH]; intros Hin; [destruct Hin|]. cbn [wsum].
  pose proof (lsum_nonneg_ca k x Hx). pose proof (wsum_nonneg_ca k r Hr).
  destruct Hin as [<-|Hin]; [lia|]. specialize (IH Hin). lia.
Qed.

Lemma Ledger_tot_nonneg w k bk : Ledger w -> bank_of w k = Some bk -> 0 <= b_tas bk /\ 0 <= b_tls bk.
Proof.
  intros L Hk. destruct (lg_tot w L k bk Hk). pose proof (wsum_nonneg_ca (bank_pk k) _ (lg_wf w L)). lia.
Qed.

(* excess of the bank totals over the recorded positions *)
Definition exA (w : bworld) (k : nat) : Z :=
  match bank_of w k with Some bk => b_tas bk - wsum (ca (bank_pk k)) (bw_accts w) | None => 0 end.
Definition exL (w : bworld) (k : nat) : Z :=
  match bank_of w k with Some bk => b_tls bk - wsum (cl (bank_pk k)) (bw_accts w) | None => 0 end.

Definition step_delta (w w' : bworld) (b : nat) (da dl : Z) : Prop :=
  forall k, exA w' k = exA w k + (if (b =? k)%nat then da else 0) /\ exL w' k = exL w k + (if (b =? k)%nat then dl else 0).

(* the invariant survives any rewriting of banks and accounts in which, for every bank, the recorded positions grow no
   faster than the totals *)
Lemma ledger_update w banks' accts' n p :
  Ledger w -> Forall wf_sv banks' -> Forall (Forall wf_bal) accts' ->
  (forall k bk', nth_error banks' k = Some bk' -> exists bk, nth_error (bw_banks w) k = Some bk /\
     wsum (ca (bank_pk k)) accts' - wsum (ca (bank_pk k)) (bw_accts w) <= b_tas bk' - b_tas bk /\
     wsum (cl (bank_pk k)) accts' - wsum (cl (bank_pk k)) (bw_accts w) <= b_tls bk' - b_tls bk) ->
  Ledger (mkBW banks' accts' n p).
Proof.
  intros L Wb Wa H. constructor; cbn [bw_banks bw_accts]; [exact Wa|exact Wb|].
  intros k bk' Hk. destruct (H _ _ Hk) as (bk & Hbk & Ha & Hl). destruct (lg_tot w L k bk Hbk). lia.
Qed.

(* what replacing one located slot does to the sums of its account: they move with the bank totals, up to the abandoned
   da, dl, for the slot's key and not at all for the others *)
Lemma slot_delta kk bk la i la1 bl bk' bl' da dl :
  Forall wf_bal la -> located kk la i la1 -> nth_res i la1 = Ok bl -> slot_ok kk bk bl bk' bl' da dl ->
  Forall wf_bal (set_nth i bl' la1) /\
  forall k, lsum (ca k) (set_nth i bl' la1) = lsum (ca k) la + (if k =? kk then b_tas bk' - b_tas bk - da else 0) /\
            lsum (cl k) (set_nth i bl' la1) = lsum (cl k) la + (if k =? kk then b_tls bk' - b_tls bk - dl else 0).
Proof.
  intros Hwla Hloc Hbl (_ & Hwbl' & Hoth & Hda & Hdl & _).
  destruct (slot_located _ _ _ _ _ Hloc Hbl Hwla) as (Hact & Hbank & _ & Hwla1 & Hsum).
  split; [apply Forall_set_nth; assumption|]. intros k. apply nth_res_ok in Hbl.
  rewrite !(lsum_set_nth _ _ _ _ _ Hbl). destruct (Hsum k) as [-> ->].
  destruct (Z.eqb_spec k kk) as [->|Hne]; [lia|].
  destruct (Hoth _ Hne) as [-> ->]. destruct (ca_other k bl Hact ltac:(congruence)) as [-> ->]. lia.
Qed.

(* generic step: replacing one account and its bank *)
Lemma put_ledger w a b bk la bk' la' da dl :
  Ledger w -> nth_res b (bw_banks w) = Ok bk -> nth_res a (bw_accts w) = Ok la ->
  wf_sv bk' -> Forall wf_bal la' -> 0 <= da -> 0 <= dl ->
  (forall k, lsum (ca k) la' = lsum (ca k) la + (if k =? bank_pk b then b_tas bk' - b_tas bk - da else 0) /\
             lsum (cl k) la' = lsum (cl k) la + (if k =? bank_pk b then b_tls bk' - b_tls bk - dl else 0)) ->
  Ledger (put w a b bk' la') /\ step_delta w (put w a b bk' la') b da dl.
Proof.
  intros L Hbk Hla Hsv' Hwla' Hda Hdl Hsum.
  pose proof (nth_res_ok _ _ _ Hbk) as Ebk. pose proof (nth_res_ok _ _ _ Hla) as Ela.
  assert (Hex : step_delta w (put w a b bk' la') b da dl).
  { intros k. unfold exA, exL, bank_of, put. cbn [bw_accts bw_banks].
    rewrite !(wsum_set_nth _ _ _ _ _ Ela). destruct (Hsum (bank_pk k)) as [-> ->].
    destruct (Nat.eq_dec b k) as [<-|Hne].
    - rewrite (nth_set_nth_same _ _ _ _ Ebk), Ebk, Nat.eqb_refl, Z.eqb_refl. lia.
    - rewrite nth_set_nth_other by assumption. replace (b =? k)%nat with false by lia.
      replace (bank_pk k =? bank_pk b) with false by (unfold bank_pk; lia).
      destruct (nth_error (bw_banks w) k); lia. }
  split; [|exact Hex]. unfold put.
  apply (ledger_update w); [exact L|apply Forall_set_nth; [exact (lg_sv w L)|exact Hsv']|apply Forall_set_nth; [exact (lg_wf w L)|exact Hwla']|].
  intros k bkk Hk. destruct (Hex k) as [E1 E2]. unfold exA, exL, bank_of, put in E1, E2. cbn [bw_accts bw_banks] in E1, E2.
  rewrite Hk in E1, E2. destruct (Nat.eq_dec b k) as [<-|Hne].
  - exists bk. rewrite Ebk, Nat.eqb_refl in E1, E2. split; [exact Ebk|lia].
  - rewrite nth_set_nth_other in Hk by assumption. exists bkk. rewrite Hk in E1, E2.
    replace (b =? k)%nat with false in E1, E2 by lia. split; [exact Hk|lia].
Qed.

(* Account la became la' while its bank went from bk to bk': for the bank's key kk the recorded shares moved with the totals,
   up to abandoned da, dl >= 0; for every other key they did not move.  This is all the ledger needs to know of a handler. *)
Definition moves_with (kk : Z) (bk bk' : bank) (la la' : laccount) : Prop :=
  wf_sv bk' /\ Forall wf_bal la' /\ exists da dl, 0 <= da /\ 0 <= dl /\
  forall k, lsum (ca k) la' = lsum (ca k) la + (if k =? kk then b_tas bk' - b_tas bk - da else 0) /\
            lsum (cl k) la' = lsum (cl k) la + (if k =? kk then b_tls bk' - b_tls bk - dl else 0).

Lemma slot_moves kk bk la i la1 bl bk' bl' da dl :
  Forall wf_bal la -> located kk la i la1 -> nth_res i la1 = Ok bl -> slot_ok kk bk bl bk' bl' da dl -> moves_with kk bk bk' la (set_nth i bl' la1).
Proof.
  intros W Hloc Hbl Hso. destruct (slot_delta _ _ _ _ _ _ _ _ _ _ W Hloc Hbl Hso) as (W' & Hs).
  destruct Hso as (Hsv & _ & _ & _ & _ & Hda & Hdl). split; [exact Hsv|]. split; [exact W'|]. exists da, dl. auto.
Qed.
Lemma moves_none kk bk bk' la :
  wf_sv bk' -> Forall wf_bal la -> b_tas bk' = b_tas bk -> b_tls bk' = b_tls bk -> moves_with kk bk bk' la la.
Proof.
  intros S W T1 T2. split; [exact S|]. split; [exact W|]. exists 0, 0. split; [lia|]. split; [lia|].
  intros k. rewrite T1, T2. destruct (k =? kk); lia.
Qed.
(* sorting, before or after, moves nothing *)
Lemma moves_sort kk bk bk' la la' : moves_with kk bk bk' la la' -> moves_with kk bk bk' la (sort_balances la').
Proof.
  intros (S & W & da & dl & Ha & Hl & H). split; [exact S|]. split; [apply Forall_sort; exact W|].
  exists da, dl. split; [exact Ha|]. split; [exact Hl|]. intros k. rewrite !lsum_sort. apply H.
Qed.
Lemma moves_sorted kk bk bk' la la' : moves_with kk bk bk' (sort_balances la) la' -> moves_with kk bk bk' la la'.
Proof.
  intros (S & W & da & dl & Ha & Hl & H). split; [exact S|]. split; [exact W|].
  exists da, dl. split; [exact Ha|]. split; [exact Hl|]. intros k. rewrite <- !(lsum_sort _ la). apply H.
Qed.
(* bookkeeping on the bank before and after that keeps the totals *)
Lemma moves_frame kk bk1 bk2 bk bk3 la la' :
  moves_with kk bk1 bk2 la la' -> b_tas bk1 = b_tas bk -> b_tls bk1 = b_tls bk -> b_tas bk3 = b_tas bk2 -> b_tls bk3 = b_tls bk2 ->
  wf_sv bk3 -> moves_with kk bk bk3 la la'.
Proof.
  intros (_ & W & da & dl & Ha & Hl & H) T1 T2 T3 T4 S. split; [exact S|]. split; [exact W|].
  exists da, dl. rewrite T3, T4, <- T1, <- T2. auto.
Qed.

Lemma moves_ledger w a b bk la bk' la' :
  Ledger w -> nth_res b (bw_banks w) = Ok bk -> nth_res a (bw_accts w) = Ok la ->
  moves_with (bank_pk b) bk bk' la la' -> Ledger (put w a b bk' la').
Proof.
  intros L Hb Ha (S & W & da & dl & Hda & Hdl & H). apply (put_ledger w a b bk la bk' la' da dl); assumption.
Qed.

(* two accounts trading positions in two banks A, B: account 1 moves with A and then with B, account 2 with B and then with A,
   each on the bank state the other left *)
Lemma moves_ledger2 w a1 a2 b1 b2 bkA bkA1 bkA' bkB bkB1 bkB' la1 la1m la1' la2 la2m la2' n p :
  Ledger w -> a1 <> a2 -> b1 <> b2 ->
  nth_res b1 (bw_banks w) = Ok bkA -> nth_res b2 (bw_banks w) = Ok bkB ->
  nth_res a1 (bw_accts w) = Ok la1 -> nth_res a2 (bw_accts w) = Ok la2 ->
  moves_with (bank_pk b1) bkA bkA1 la1 la1m -> moves_with (bank_pk b2) bkB1 bkB' la1m la1' ->
  moves_with (bank_pk b2) bkB bkB1 la2 la2m -> moves_with (bank_pk b1) bkA1 bkA' la2m la2' ->
  Ledger (mkBW (set_nth b2 bkB' (set_nth b1 bkA' (bw_banks w))) (set_nth a2 la2' (set_nth a1 la1' (bw_accts w))) n p).
Proof.
  intros L Ha Hb EA EB E1 E2 (_ & _ & da1 & dl1 & ? & ? & M1) (SB' & W1' & da2 & dl2 & ? & ? & M2)
         (_ & _ & da3 & dl3 & ? & ? & M3) (SA' & W2' & da4 & dl4 & ? & ? & M4).
  apply nth_res_ok in EA, EB, E1, E2.
  apply (ledger_update w); [exact L| | |].
  - apply Forall_set_nth; [apply Forall_set_nth; [exact (lg_sv w L)|exact SA']|exact SB'].
  - apply Forall_set_nth; [apply Forall_set_nth; [exact (lg_wf w L)|exact W1']|exact W2'].
  - intros k bk' Hk.
    assert (E2' : nth_error (set_nth a1 la1' (bw_accts w)) a2 = Some la2) by (rewrite nth_set_nth_other by assumption; exact E2).
    rewrite !(wsum_set_nth _ _ _ _ _ E2'), !(wsum_set_nth _ _ _ _ _ E1).
    destruct (M1 (bank_pk k)) as [A1 L1]. destruct (M2 (bank_pk k)) as [A2 L2].
    destruct (M3 (bank_pk k)) as [A3 L3]. destruct (M4 (bank_pk k)) as [A4 L4].
    destruct (Nat.eq_dec b2 k) as [<-|N2]; [|rewrite nth_set_nth_other in Hk by assumption; destruct (Nat.eq_dec b1 k) as [<-|N1]].
    + rewrite (nth_set_nth_same _ _ _ bkB) in Hk by (rewrite nth_set_nth_other by assumption; exact EB). apply Some_inj in Hk as <-.
      exists bkB. split; [exact EB|]. rewrite Z.eqb_refl in A2, L2, A3, L3.
      replace (bank_pk b2 =? bank_pk b1) with false in A1, L1, A4, L4 by (unfold bank_pk; lia). lia.
    + rewrite (nth_set_nth_same _ _ _ _ EA) in Hk. apply Some_inj in Hk as <-.
      exists bkA. split; [exact EA|]. rewrite Z.eqb_refl in A1, L1, A4, L4.
      replace (bank_pk b1 =? bank_pk b2) with false in A2, L2, A3, L3 by (unfold bank_pk; lia). lia.
    + rewrite nth_set_nth_other in Hk by assumption. exists bk'. split; [exact Hk|].
      replace (bank_pk k =? bank_pk b1) with false in A1, L1, A4, L4 by (unfold bank_pk; lia).
      replace (bank_pk k =? bank_pk b2) with false in A2, L2, A3, L3 by (unfold bank_pk; lia). lia.
Qed.

(* generic step: an operation on one (bank, slot); P relates what it abandons to the bank *)
Lemma with_slot_ledger (P : bank -> Z -> Z -> Prop) w a b create f w' r :
  Ledger w -> with_slot w a b create f = Ok (w', r) ->
  (forall bk bl bk' bl' r', wf_sv bk -> wf_bal bl -> bl_active bl = true -> bl_bank bl = bank_pk b ->
       f bk bl = Ok (bk', bl', r') -> exists da dl, slot_ok (bank_pk b) bk bl bk' bl' da dl /\ P bk da dl) ->
  Ledger w' /\ exists bk da dl, bank_of w b = Some bk /\ P bk da dl /\ 0 <= da /\ 0 <= dl /\ step_delta w w' b da dl.
Proof.
  intros L H Hf. unfold with_slot in H.
  bind_inv H as bk Hbk. bind_inv H as la Hla.
  bind_inv H as [i la1] Hloc. apply located_slot in Hloc. bind_inv H as bl Hbl.
  bind_inv H as [[bk' bl'] r'] Hfr. apply Ok_inj in H. apply pair_equal_spec in H as [<- _].
  pose proof (nth_res_ok _ _ _ Hbk) as Ebk.
  pose proof (Forall_nth_error _ _ _ _ (lg_wf w L) (nth_res_ok _ _ _ Hla)) as Hwla.
  destruct (slot_located _ _ _ _ _ Hloc Hbl Hwla) as (Hact & Hbank & Hwbl & _ & _).
  pose proof (Forall_nth_error _ _ _ _ (lg_sv w L) Ebk) as Hsv.
  destruct (Hf _ _ _ _ _ Hsv Hwbl Hact Hbank Hfr) as (da & dl & Hso & HP).
  destruct (slot_delta _ _ _ _ _ _ _ _ _ _ Hwla Hloc Hbl Hso) as (Hw' & Hsum).
  destruct Hso as (Hsv' & _ & _ & _ & _ & Hda0 & Hdl0).
  destruct (put_ledger _ _ _ _ _ _ _ _ _ L Hbk Hla Hsv' Hw' Hda0 Hdl0 Hsum) as (L' & Hex). split; [exact L'|].
  exists bk, da, dl. repeat (split; [assumption|]). exact Hex.
Qed.

(* an operation that abandons nothing leaves every excess as it was *)
Lemma with_slot_exact w a b create f w' r :
  Ledger w -> with_slot w a b create f = Ok (w', r) ->
  (forall bk bl bk' bl' r', wf_sv bk -> wf_bal bl -> bl_active bl = true -> bl_bank bl = bank_pk b ->
       f bk bl = Ok (bk', bl', r') -> slot_ok (bank_pk b) bk bl bk' bl' 0 0) ->
  Ledger w' /\ forall k, exA w' k = exA w k /\ exL w' k = exL w k.
Proof.
  intros L H Hf.
  destruct (with_slot_ledger (fun _ da dl => da = 0 /\ dl = 0) _ _ _ _ _ _ _ L H) as (L' & _ & da & dl & _ & [-> ->] & _ & _ & Hd).
  - intros bk bl bk' bl' r' Hsv Hwf Ha Hb Hfr. exists 0, 0. split; [eapply Hf; eauto|split; reflexivity].
  - split; [exact L'|]. intros k. destruct (Hd k) as [-> ->]. destruct (b =? k)%nat; lia.
Qed.

(* sorting one account *)
Lemma sort_ledger w a la :
  Ledger w -> nth_res a (bw_accts w) = Ok la ->
  Ledger (mkBW (bw_banks w) (set_nth a (sort_balances la) (bw_accts w)) (bw_now w) (bw_pf w)) /\
  forall k, exA (mkBW (bw_banks w) (set_nth a (sort_balances la) (bw_accts w)) (bw_now w) (bw_pf w)) k = exA w k /\
            exL (mkBW (bw_banks w) (set_nth a (sort_balances la) (bw_accts w)) (bw_now w) (bw_pf w)) k = exL w k.
Proof.
  intros L Hla. pose proof (nth_res_ok _ _ _ Hla) as Ela.
  assert (Hs : forall k, wsum (ca k) (set_nth a (sort_balances la) (bw_accts w)) = wsum (ca k) (bw_accts w) /\
                         wsum (cl k) (set_nth a (sort_balances la) (bw_accts w)) = wsum (cl k) (bw_accts w)).
  { intros k. rewrite !(wsum_set_nth _ _ _ _ _ Ela), !lsum_sort. lia. }
  split.
  - apply (ledger_update w); [exact L|exact (lg_sv w L)| |].
    + apply Forall_set_nth; [exact (lg_wf w L)|]. apply Forall_sort. exact (Forall_nth_error _ _ _ _ (lg_wf w L) Ela).
    + intros k bkk Hk. exists bkk. destruct (Hs (bank_pk k)) as [-> ->]. split; [exact Hk|lia].
  - intros k. unfold exA, exL, bank_of. cbn [bw_accts bw_banks]. destruct (Hs (bank_pk k)) as [-> ->]. split; reflexivity.
Qed.

(* bank-only step *)
Lemma put_bank_ledger w b bk bk' :
  Ledger w -> nth_res b (bw_banks w) = Ok bk -> wf_sv bk' -> b_tas bk' = b_tas bk -> b_tls bk' = b_tls bk ->
  Ledger (put_bank w b bk') /\ forall k, exA (put_bank w b bk') k = exA w k /\ exL (put_bank w b bk') k = exL w k.
Proof.
  intros L Hbk Hsv Ha Hl. pose proof (nth_res_ok _ _ _ Hbk) as Ebk.
  split.
  - apply (ledger_update w); [exact L|apply Forall_set_nth; [exact (lg_sv w L)|exact Hsv]|exact (lg_wf w L)|].
    intros k bkk Hk. destruct (Nat.eq_dec b k) as [<-|Hne].
    + rewrite (nth_set_nth_same _ _ _ _ Ebk) in Hk. apply Some_inj in Hk as <-. exists bk. split; [exact Ebk|lia].
    + rewrite nth_set_nth_other in Hk by assumption. exists bkk. split; [exact Hk|lia].
  - intros k. unfold exA, exL, bank_of, put_bank. cbn [bw_accts bw_banks].
    destruct (Nat.eq_dec b k) as [<-|Hne].
    + rewrite (nth_set_nth_same _ _ _ _ Ebk), Ebk. lia.
    + rewrite nth_set_nth_other by assumption. split; reflexivity.
Qed.

Lemma lift2_ok r bk' bl' r' : lift2 r = Ok (bk', bl', r') -> r = Ok (bk', bl').
Proof. unfold lift2. intros H. apply bind_ok in H as ([x y] & -> & H). apply Ok_inj in H. congruence. Qed.
Lemma lift3_ok r bk' bl' r' : lift3 r = Ok (bk', bl', r') -> exists n, r = Ok (bk', bl', n).
Proof. unfold lift3. intros H. apply bind_ok in H as ([[x y] n] & -> & H). apply Ok_inj in H. exists n. congruence. Qed.

(* closing a position abandons shares worth less than 0.0001 native units on either side *)
Definition dust (bk : bank) (da dl : Z) : Prop :=
  da * b_asv bk / ONE < ZERO_AMOUNT_THRESHOLD /\ dl * b_lsv bk / ONE < ZERO_AMOUNT_THRESHOLD.

Lemma inc_slot_ok kk bk bl now amt t bk' bl' :
  wf_sv bk -> wf_bal bl -> bl_active bl = true -> bl_bank bl = kk -> 0 <= amt ->
  increase_balance bk bl now amt t = Ok (bk', bl') -> slot_ok kk bk bl bk' bl' 0 0.
Proof.
  intros Hsv Hwf Ha Hb Hamt H. destruct (increase_value _ _ _ _ _ _ _ Hsv Hwf Hamt H) as (_ & Hwf' & _).
  pose proof (increase_balance_inv _ _ _ _ _ _ _ Hsv Hwf Hamt H) as F.
  destruct (if_meta _ _ _ _ _ _ F) as (M1 & M2 & _). destruct (if_sv _ _ _ _ _ _ F) as [S1 S2].
  pose proof (if_a _ _ _ _ _ _ F). pose proof (if_l _ _ _ _ _ _ F). pose proof (if_tas _ _ _ _ _ _ F). pose proof (if_tls _ _ _ _ _ _ F).
  apply slot_ok_same; auto; try lia. unfold wf_sv in *. lia.
Qed.
Lemma dec_slot_ok kk bk bl now amt t bk' bl' :
  wf_sv bk -> wf_bal bl -> bl_active bl = true -> bl_bank bl = kk -> 0 <= amt ->
  decrease_balance bk bl now amt t = Ok (bk', bl') -> slot_ok kk bk bl bk' bl' 0 0.
Proof.
  intros Hsv Hwf Ha Hb Hamt H. destruct (decrease_value _ _ _ _ _ _ _ Hsv Hwf Hamt H) as (_ & Hwf').
  pose proof (decrease_balance_inv _ _ _ _ _ _ _ Hsv Hwf Hamt H) as F.
  destruct (df_meta _ _ _ _ _ _ F) as (M1 & M2 & _). destruct (df_sv _ _ _ _ _ _ F) as [S1 S2].
  pose proof (df_a _ _ _ _ _ _ F). pose proof (df_l _ _ _ _ _ _ F). pose proof (df_tas _ _ _ _ _ _ F). pose proof (df_tls _ _ _ _ _ _ F).
  apply slot_ok_same; auto; try lia. unfold wf_sv in *. lia.
Qed.
Lemma claim_slot_ok kk bk bl now bk' bl' :
  wf_sv bk -> wf_bal bl -> bl_active bl = true -> bl_bank bl = kk ->
  claim_emissions bk bl now = Ok (bk', bl') -> slot_ok kk bk bl bk' bl' 0 0.
Proof.
  intros Hsv Hwf Ha Hb H. destruct (claim_emissions_core _ _ _ _ _ H) as [Cb Cl].
  destruct Cb as (S1 & S2 & T1 & T2 & _). destruct Cl as (M1 & M2 & _ & A1 & A2).
  apply slot_ok_same; auto; unfold wf_sv, wf_bal in *; lia.
Qed.
Lemma settle_slot_ok kk bk bl now bk' bl' n :
  wf_sv bk -> wf_bal bl -> bl_active bl = true -> bl_bank bl = kk ->
  settle_emissions bk bl now = Ok (bk', bl', n) -> slot_ok kk bk bl bk' bl' 0 0.
Proof.
  intros Hsv Hwf Ha Hb H. unfold settle_emissions in H.
  bind_inv H as [b1 bl1] Hc. bind_inv H as fl _.
  bind_inv H as rest _. bind_inv H as n' _.
  apply Ok_inj in H. apply pair_equal_spec in H as [H _]. apply pair_equal_spec in H as [<- <-].
  exact (claim_slot_ok _ _ _ _ _ _ Hsv Hwf Ha Hb Hc).
Qed.

(* a primitive that closes the slot: each total drops by the slot's shares, or stays where those shares are dust *)
Lemma closing_dust t t' x sv :
  t' = t - x \/ t' = t /\ x * sv / ONE < ZERO_AMOUNT_THRESHOLD -> (t' - (t - x)) * sv / ONE < ZERO_AMOUNT_THRESHOLD.
Proof.
  intros [-> | [-> D]].
  - replace (t - x - (t - x)) with 0 by lia. rewrite Z.mul_0_l, Z.div_0_l by (rewrite ONE_val; lia). reflexivity.
  - replace (t - (t - x)) with x by lia. exact D.
Qed.
Lemma closing_slot_ok kk bk bl bk' :
  wf_sv bk -> wf_bal bl -> bl_active bl = true -> bl_bank bl = kk -> b_asv bk' = b_asv bk /\ b_lsv bk' = b_lsv bk ->
  b_tas bk' = b_tas bk - bl_a bl \/ b_tas bk' = b_tas bk /\ bl_a bl * b_asv bk / ONE < ZERO_AMOUNT_THRESHOLD ->
  b_tls bk' = b_tls bk - bl_l bl \/ b_tls bk' = b_tls bk /\ bl_l bl * b_lsv bk / ONE < ZERO_AMOUNT_THRESHOLD ->
  exists da dl, slot_ok kk bk bl bk' bal_empty da dl /\ dust bk da dl.
Proof.
  intros Hsv Hwf Ha Hb [S1 S2] Hta Htl. eexists _, _. split.
  - destruct Hwf. apply slot_ok_closed; auto; unfold wf_sv, wf_bal in *; lia.
  - split; apply closing_dust; assumption.
Qed.

Lemma wall_slot_ok kk bk bl now bk' bl' n :
  wf_sv bk -> wf_bal bl -> bl_active bl = true -> bl_bank bl = kk ->
  withdraw_all bk bl now = Ok (bk', bl', n) -> exists da dl, slot_ok kk bk bl bk' bl' da dl /\ dust bk da dl.
Proof.
  intros Hsv Hwf Ha Hb H. pose proof (withdraw_all_inv _ _ _ _ _ _ Hsv Hwf H) as F. rewrite (wa_closed _ _ _ _ _ F).
  apply closing_slot_ok; [exact Hsv|exact Hwf|exact Ha|exact Hb|exact (wa_sv _ _ _ _ _ F)|left; exact (wa_tas _ _ _ _ _ F)|].
  right. exact (conj (wa_tls _ _ _ _ _ F) (wa_liab_dust _ _ _ _ _ F)).
Qed.
Lemma rall_slot_ok kk bk bl now bk' bl' n :
  wf_sv bk -> wf_bal bl -> bl_active bl = true -> bl_bank bl = kk ->
  repay_all bk bl now = Ok (bk', bl', n) -> exists da dl, slot_ok kk bk bl bk' bl' da dl /\ dust bk da dl.
Proof.
  intros Hsv Hwf Ha Hb H. pose proof (repay_all_inv _ _ _ _ _ _ Hsv Hwf H) as F. rewrite (ra_closed _ _ _ _ _ F).
  apply closing_slot_ok; [exact Hsv|exact Hwf|exact Ha|exact Hb|exact (ra_sv _ _ _ _ _ F)| |left; exact (ra_tls _ _ _ _ _ F)].
  right. exact (conj (ra_tas _ _ _ _ _ F) (ra_asset_dust _ _ _ _ _ F)).
Qed.
Lemma close_slot_ok kk bk bl now bk' bl' :
  wf_sv bk -> wf_bal bl -> bl_active bl = true -> bl_bank bl = kk ->
  close_balance bk bl now = Ok (bk', bl') -> exists da dl, slot_ok kk bk bl bk' bl' da dl /\ dust bk da dl.
Proof.
  intros Hsv Hwf Ha Hb H. destruct (close_balance_inv _ _ _ _ _ Hsv Hwf H) as (-> & T1 & T2 & S1 & S2 & _ & _ & _ & D1 & D2).
  apply closing_slot_ok; [exact Hsv|exact Hwf|exact Ha|exact Hb|exact (conj S1 S2)|right; exact (conj T1 D1)|right; exact (conj T2 D2)].
Qed.

(* operations carry amounts that come from u64 arguments *)
Definition bop_ok (o : bop) : Prop :=
  match o with
  | BDeposit _ _ n | BWithdraw _ _ n | BBorrow _ _ n | BRepay _ _ n
  | BDepositIgnoreCap _ _ n | BWithdrawIgnoreCap _ _ n | BSocialize _ n => 0 <= n
  | _ => True
  end.

Lemma socialize_sv b loss b' kill : wf_sv b -> 0 <= b_tas b -> socialize_loss b loss = Ok (b', kill) ->
  wf_sv b' /\ b_tas b' = b_tas b /\ b_tls b' = b_tls b.
Proof.
  intros Hsv Ht H. destruct (socialize_inv _ _ _ _ Hsv Ht H) as (nsv & -> & Hn & _). destruct Hsv.
  split; [split; assumption|split; reflexivity].
Qed.

(* the operations that close a position, and the bank they close it in *)
Definition closes (o : bop) : option nat :=
  match o with BWithdrawAll _ b | BRepayAll _ b | BCloseBalance _ b => Some b | _ => None end.

(* what one successful operation does to the excess of every bank *)
Definition bstep_effect (w : bworld) (o : bop) (w' : bworld) : Prop :=
  match closes o with
  | None => forall k, exA w' k = exA w k /\ exL w' k = exL w k
  | Some b => exists bk da dl, bank_of w b = Some bk /\ dust bk da dl /\ 0 <= da /\ 0 <= dl /\ step_delta w w' b da dl
  end.

Theorem bstep_ledger w o w' r : Ledger w -> bop_ok o -> bstep w o = Ok (w', r) -> Ledger w' /\ bstep_effect w o w'.
Proof.
  intros L Hok H. destruct o; cbn [bstep bop_ok] in H, Hok; unfold bstep_effect; cbn [closes].
  - apply Ok_inj, pair_equal_spec in H as [<- _]. split; [|intros k; split; reflexivity].
    destruct L as [L1 L2 L3]. constructor; auto.
  - eapply with_slot_exact; [exact L|exact H|]. intros bk bl bk' bl' r' ? ? ? ? Hf. apply lift2_ok in Hf. eapply inc_slot_ok; eauto.
  - eapply with_slot_exact; [exact L|exact H|]. intros bk bl bk' bl' r' ? ? ? ? Hf. apply lift2_ok in Hf. eapply dec_slot_ok; eauto.
  - eapply with_slot_exact; [exact L|exact H|]. intros bk bl bk' bl' r' ? ? ? ? Hf. apply lift2_ok in Hf. eapply dec_slot_ok; eauto.
  - eapply with_slot_exact; [exact L|exact H|]. intros bk bl bk' bl' r' ? ? ? ? Hf. apply lift2_ok in Hf. eapply inc_slot_ok; eauto.
  - eapply (with_slot_ledger dust); [exact L|exact H|]. intros bk bl bk' bl' r' ? ? ? ? Hf. apply lift3_ok in Hf as [n Hf]. eapply wall_slot_ok; eauto.
  - eapply (with_slot_ledger dust); [exact L|exact H|]. intros bk bl bk' bl' r' ? ? ? ? Hf. apply lift3_ok in Hf as [n Hf]. eapply rall_slot_ok; eauto.
  - eapply (with_slot_ledger dust); [exact L|exact H|]. intros bk bl bk' bl' r' ? ? ? ? Hf. apply lift2_ok in Hf. eapply close_slot_ok; eauto.
  - eapply with_slot_exact; [exact L|exact H|]. intros bk bl bk' bl' r' ? ? ? ? Hf. apply lift2_ok in Hf. eapply inc_slot_ok; eauto.
  - eapply with_slot_exact; [exact L|exact H|]. intros bk bl bk' bl' r' ? ? ? ? Hf. apply lift2_ok in Hf. eapply dec_slot_ok; eauto.
  - bind_inv H as bk Hbk. bind_inv H as bk' Hacc.
    apply Ok_inj, pair_equal_spec in H as [<- _].
    pose proof (nth_res_ok _ _ _ Hbk) as Ebk. destruct (Ledger_tot_nonneg w b bk L Ebk) as [Hta Htl].
    destruct (Forall_nth_error _ _ _ _ (lg_sv w L) Ebk) as [Sa Sl].
    assert (Sl' : 0 <= b_lsv bk) by lia.
    destruct (accrue_monotone _ _ _ _ Sa Sl' Hta Htl Hacc) as (M1 & M2 & _ & _ & _ & _ & T1 & T2 & _).
    eapply put_bank_ledger; eauto; unfold wf_sv; lia.
  - bind_inv H as bk Hbk. bind_inv H as [bk' kill] Hs.
    apply Ok_inj, pair_equal_spec in H as [<- _].
    pose proof (nth_res_ok _ _ _ Hbk) as Ebk. destruct (Ledger_tot_nonneg w b bk L Ebk) as [Hta Htl].
    pose proof (Forall_nth_error _ _ _ _ (lg_sv w L) Ebk) as Hsv.
    destruct (socialize_sv _ _ _ _ Hsv Hta Hs) as (Hsv' & T1 & T2).
    eapply put_bank_ledger; eauto; lia.
  - eapply with_slot_exact; [exact L|exact H|]. intros bk bl bk' bl' r' ? ? ? ? Hf. apply lift2_ok in Hf. eapply claim_slot_ok; eauto.
  - eapply with_slot_exact; [exact L|exact H|]. intros bk bl bk' bl' r' ? ? ? ? Hf. apply lift3_ok in Hf as [n Hf]. eapply settle_slot_ok; eauto.
  - bind_inv H as la Hla. apply Ok_inj, pair_equal_spec in H as [<- _]. apply sort_ledger; assumption.
  - bind_inv H as bk Hbk. bind_inv H as c _.
    apply Ok_inj, pair_equal_spec in H as [<- _]. split; [exact L|intros k; split; reflexivity].
Qed.

(* the initial world of the correspondence suite: no positions, no shares *)
Lemma ledger_init banks n now pf :
  Forall (fun b => wf_sv b /\ 0 <= b_tas b /\ 0 <= b_tls b) banks ->
  Ledger (mkBW banks (repeat la_empty n) now pf).
Proof.
  intros Hb. assert (Hz : forall (f : Z -> balance -> Z), (forall k, f k bal_empty = 0) -> forall k, wsum (f k) (repeat la_empty n) = 0).
  { intros f Hf k. induction n as [|n IH]; cbn [repeat wsum]; [reflexivity|]. rewrite IH.
    unfold la_empty. cbn [repeat lsum]. rewrite !Hf. reflexivity. }
  constructor; cbn [bw_accts bw_banks].
  - apply Forall_forall. intros la Hin. apply repeat_spec in Hin as ->. unfold la_empty.
    apply Forall_forall. intros bl Hin. apply repeat_spec in Hin as ->. unfold wf_bal. cbn. lia.
  - eapply Forall_impl; [|exact Hb]. intros b (H & _). exact H.
  - intros k bk Hk. unfold bank_of in Hk. cbn [bw_banks] in Hk.
    rewrite (Hz ca (fun k => proj1 (ca_empty k))), (Hz cl (fun k => proj2 (ca_empty k))).
    pose proof (Forall_nth_error _ _ _ _ Hb Hk). cbn in H. lia.
Qed.
