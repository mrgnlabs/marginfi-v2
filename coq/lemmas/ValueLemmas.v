(* ValueLemmas.v — C03 (no free value) and C17 (caps / utilisation) over the wrapper model. *)
Require Import Base Constants Fixed Curve Bank BankOps FixedLemmas BankLemmas.
From Coq Require Import ZifyBool.
Local Open Scope Z_scope.

(* exact net value of a position at the bank's share values, scale 2^96 *)
Definition pval (b : bank) (bl : balance) : Z := bl_a bl * b_asv b - bl_l bl * b_lsv b.

(* shares bought for an amount x at share value v are worth x, less than one v short *)
Lemma shares_bounds x v (s := x * ONE / v) : 0 <= x -> 0 < v -> 0 <= s /\ x * ONE - v < s * v <= x * ONE.
Proof.
  intros Hx Hv. pose proof ONE_pos. subst s. pose proof (floor_bounds (x * ONE) v Hv).
  split; [apply Z.div_pos; nia | lia].
Qed.

Lemma shares_back x v s : 0 < v -> x <= s * v / ONE -> x * ONE / v <= s.
Proof.
  intros Hv Hx. apply Z.div_le_upper_bound; [exact Hv|].
  pose proof (floor_bounds (s * v) ONE ONE_pos). nia.
Qed.

Lemma ashares_le b x : 0 <= x -> 0 <= b_asv b -> 0 <= ashares b x /\ ashares b x * b_asv b <= x * ONE.
Proof.
  intros Hx Ha. unfold ashares. destruct (b_asv b =? 0) eqn:E.
  - pose proof ONE_pos. nia.
  - destruct (shares_bounds x (b_asv b)); lia.
Qed.
Lemma ashares_gt b x : 0 <= x -> 0 < b_asv b -> x * ONE - b_asv b < ashares b x * b_asv b.
Proof. intros Hx Ha. unfold ashares. replace (b_asv b =? 0) with false by lia. apply shares_bounds; assumption. Qed.
Lemma lshares_le b x : 0 <= x -> 0 < b_lsv b -> 0 <= lshares b x /\ lshares b x * b_lsv b <= x * ONE.
Proof. intros Hx Hl. destruct (shares_bounds x (b_lsv b)); [assumption..|]. unfold lshares. lia. Qed.
Lemma lshares_gt b x : 0 <= x -> 0 < b_lsv b -> x * ONE - b_lsv b < lshares b x * b_lsv b.
Proof. intros Hx Hl. apply shares_bounds; assumption. Qed.

Lemma ashares_back b x s : 0 <= s -> 0 <= b_asv b -> x <= s * b_asv b / ONE -> ashares b x <= s.
Proof.
  intros Hs Ha Hx. unfold ashares. destruct (b_asv b =? 0) eqn:E; [exact Hs | apply shares_back; lia].
Qed.

(* deposit / repay: the position is credited at most what was paid in *)
Lemma increase_value b bl now delta t b' bl' :
  wf_sv b -> wf_bal bl -> 0 <= delta ->
  increase_balance b bl now delta t = Ok (b', bl') ->
  pval b' bl' - pval b bl <= delta * ONE /\ wf_bal bl' /\ 0 <= pval b' bl' - pval b bl.
Proof.
  intros Hsv Hbl Hd H. destruct (increase_balance_inv _ _ _ _ _ _ _ Hsv Hbl Hd H) as [Fa Fl _ _ [Fs1 Fs2] _ _ _ _ _].
  destruct Hsv as [Hasv Hlsv], Hbl as [Hba Hbll].
  pose proof (amount_nonneg _ _ Hbll (Z.lt_le_incl _ _ Hlsv)) as Hcl.
  set (ai := inc_a_inc b bl delta) in *. set (ld := inc_l_dec b bl delta) in *.
  assert (Hai : 0 <= ai /\ 0 <= ld /\ ai + ld = delta /\ ld <= bl_l bl * b_lsv b / ONE)
    by (unfold ai, ld, inc_a_inc, inc_l_dec; lia).
  destruct Hai as (Hai & Hld & Hsum & Hcap).
  destruct (ashares_le b ai Hai Hasv) as [A0 A1]. destruct (lshares_le b ld Hld Hlsv) as [L0 L1].
  pose proof (shares_back _ _ _ Hlsv Hcap) as Hle. fold (lshares b ld) in Hle.
  unfold pval, wf_bal. rewrite Fa, Fl, Fs1, Fs2. nia.
Qed.

(* withdraw / borrow: the position is debited at least what was paid out, minus one share-value ulp each side *)
Lemma decrease_value b bl now delta t b' bl' :
  wf_sv b -> wf_bal bl -> 0 <= delta ->
  decrease_balance b bl now delta t = Ok (b', bl') ->
  delta * ONE - b_asv b - b_lsv b < pval b bl - pval b' bl' /\ wf_bal bl'.
Proof.
  intros Hsv Hbl Hd H. destruct (decrease_balance_inv _ _ _ _ _ _ _ Hsv Hbl Hd H) as [Fa Fl _ _ [Fs1 Fs2] _ _ _ _ _].
  destruct Hsv as [Hasv Hlsv], Hbl as [Hba Hbll].
  pose proof (amount_nonneg _ _ Hba Hasv) as Hca.
  set (ad := dec_a_dec b bl delta) in *. set (li := dec_l_inc b bl delta) in *.
  assert (Had : 0 <= ad /\ 0 <= li /\ ad + li = delta /\ ad <= bl_a bl * b_asv b / ONE)
    by (unfold ad, li, dec_a_dec, dec_l_inc; lia).
  destruct Had as (Had & Hli & Hsum & Hcap).
  destruct (lshares_le b li Hli Hlsv) as [L0 _]. pose proof (lshares_gt b li Hli Hlsv) as L2.
  destruct (ashares_le b ad Had Hasv) as [A0 _]. pose proof (ashares_back b ad _ Hba Hasv Hcap) as Hle.
  (* worthless asset shares: the asset amount is 0 and nothing is withdrawn on the asset side *)
  assert (A2 : ad * ONE - b_asv b <= ashares b ad * b_asv b).
  { destruct (Z.eq_dec (b_asv b) 0) as [E0|Ene].
    - rewrite E0, Z.mul_0_r, Z.div_0_l in Hcap by (pose proof ONE_pos; lia). replace ad with 0 by lia. lia.
    - apply Z.lt_le_incl, ashares_gt; lia. }
  unfold pval, wf_bal. rewrite Fa, Fl, Fs1, Fs2. nia.
Qed.

(* full withdrawal: whole tokens out <= exact asset value; fraction goes to insurance fees *)
Lemma withdraw_all_value b bl now b' bl' n :
  wf_sv b -> wf_bal bl -> withdraw_all b bl now = Ok (b', bl', n) ->
  n * ONE * ONE <= bl_a bl * b_asv b /\
  n * ONE + (b_ins b' - b_ins b) = bl_a bl * b_asv b / ONE /\ 0 <= b_ins b' - b_ins b < ONE /\
  bl_l bl * b_lsv b < ZERO_AMOUNT_THRESHOLD * ONE /\ bl' = bal_empty.
Proof.
  intros Hsv Hbl H. destruct (withdraw_all_inv _ _ _ _ _ _ Hsv Hbl H) as [-> -> _ _ _ _ -> _ Fl _ _].
  pose proof (floor_bounds (bl_a bl * b_asv b) ONE ONE_pos). pose proof (floor_bounds (bl_l bl * b_lsv b) ONE ONE_pos).
  pose proof (floor_bounds (bl_a bl * b_asv b / ONE) ONE ONE_pos). pose proof (frac_eq (bl_a bl * b_asv b / ONE)).
  pose proof ONE_pos. repeat split; nia.
Qed.

(* full repayment: whole tokens charged cover the debt (to within the one ulp lost computing the amount) *)
Lemma repay_all_value b bl now b' bl' n :
  wf_sv b -> wf_bal bl -> repay_all b bl now = Ok (b', bl', n) ->
  bl_l bl * b_lsv b - ONE < n * ONE * ONE /\
  n * ONE = bl_l bl * b_lsv b / ONE + (b_ins b' - b_ins b) /\ 0 <= b_ins b' - b_ins b < ONE /\ bl' = bal_empty.
Proof.
  intros Hsv Hbl H. destruct (repay_all_inv _ _ _ _ _ _ Hsv Hbl H) as [Fn -> _ _ _ _ -> _ _ _]. cbv zeta in Fn.
  pose proof (floor_bounds (bl_l bl * b_lsv b) ONE ONE_pos).
  pose proof (floor_bounds (bl_l bl * b_lsv b / ONE) ONE ONE_pos). pose proof (frac_eq (bl_l bl * b_lsv b / ONE)).
  pose proof ONE_pos. destruct (_ =? 0) eqn:E in Fn; repeat split; nia.
Qed.

(* any sequence of operations by one user at unchanged share values *)
Definition uval (asv lsv : Z) (bl : balance) : Z := bl_a bl * asv - bl_l bl * lsv.

(* paying n tokens in / taking n tokens out, valued at the share values before the operation *)
Lemma increase_step b bl now n t b' bl' :
  wf_sv b -> wf_bal bl -> 0 <= n -> increase_balance b bl now (of_int n) t = Ok (b', bl') ->
  - n * ONE * ONE + (pval b bl' - pval b bl) <= 0 /\ wf_bal bl'.
Proof.
  intros Hsv Hbl Hn H. pose proof (of_int_nonneg n Hn) as Hn0.
  destruct (increase_value _ _ _ _ _ _ _ Hsv Hbl Hn0 H) as (V & W & _).
  destruct (if_sv _ _ _ _ _ _ (increase_balance_inv _ _ _ _ _ _ _ Hsv Hbl Hn0 H)) as [Ea El].
  unfold pval, of_int in *. rewrite Ea, El in V. split; [lia | exact W].
Qed.
Lemma decrease_step b bl now n t b' bl' :
  wf_sv b -> wf_bal bl -> 0 <= n -> decrease_balance b bl now (of_int n) t = Ok (b', bl') ->
  n * ONE * ONE + (pval b bl' - pval b bl) <= b_asv b + b_lsv b /\ wf_bal bl'.
Proof.
  intros Hsv Hbl Hn H. pose proof (of_int_nonneg n Hn) as Hn0.
  destruct (decrease_value _ _ _ _ _ _ _ Hsv Hbl Hn0 H) as (V & W).
  destruct (df_sv _ _ _ _ _ _ (decrease_balance_inv _ _ _ _ _ _ _ Hsv Hbl Hn0 H)) as [Ea El].
  unfold pval, of_int in *. rewrite Ea, El in V. split; [lia | exact W].
Qed.

Lemma ustep_value asv lsv b bl now o bl' t :
  b_asv b = asv -> b_lsv b = lsv -> 0 <= asv -> 0 < lsv -> wf_bal bl -> uop_amount_ok o ->
  ustep b bl now o = Ok (bl', t) ->
  t * ONE * ONE + (uval asv lsv bl' - uval asv lsv bl) <= uslack asv lsv o /\ wf_bal bl'.
Proof.
  intros <- <- Hasv Hlsv Hbl Hamt H. assert (Hsv : wf_sv b) by (split; assumption).
  change (uval (b_asv b) (b_lsv b)) with (pval b).
  destruct o as [n|n|n|n| |]; cbn [ustep uslack uop_amount_ok] in *; apply bind_ok in H as (r & H1 & H).
  1, 4: destruct r as [b1 bl1]; apply pair_ok in H as [<- <-]; exact (increase_step _ _ _ _ _ _ _ Hsv Hbl Hamt H1).
  1, 2: destruct r as [b1 bl1]; apply pair_ok in H as [<- <-]; exact (decrease_step _ _ _ _ _ _ _ Hsv Hbl Hamt H1).
  - destruct r as [[b1 bl1] n]. apply pair_ok in H as [<- <-].
    destruct (withdraw_all_value _ _ _ _ _ _ Hsv Hbl H1) as (V1 & _ & _ & V4 & ->).
    unfold pval, wf_bal. cbn [bal_empty bl_a bl_l]. lia.
  - destruct r as [[b1 bl1] n]. apply pair_ok in H as [<- <-].
    destruct (repay_all_value _ _ _ _ _ _ Hsv Hbl H1) as (V1 & _ & _ & ->). destruct Hbl as [Hba _].
    unfold pval, wf_bal. cbn [bal_empty bl_a bl_l]. nia.
Qed.

Fixpoint uslack_sum (asv lsv : Z) (l : list (uop * bank * Z)) : Z :=
  match l with [] => 0 | (o, _, _) :: r => uslack asv lsv o + uslack_sum asv lsv r end.

Lemma remaining_capacity_room b c :
  b_dep_limit b <> U64_MAX -> b_asset_tag b <> ASSET_TAG_DRIFT -> remaining_deposit_capacity b = Ok c -> 0 < c ->
  c * ONE <= of_int (b_dep_limit b) - b_tas b * b_asv b / ONE - ONE.
Proof.
  unfold remaining_deposit_capacity, dep_limit_active, deposit_limit_fx. intros Hl Ht H Hc.
  replace (b_dep_limit b =? U64_MAX) with false in H by lia.
  replace (b_asset_tag b =? ASSET_TAG_DRIFT) with false in H by lia. cbn [negb] in H.
  apply bind_ok in H as (cur & Hcur & H). apply get_asset_amount_inv in Hcur as ->. cbn [bind] in H.
  destruct (_ <=? _) in H. { apply Ok_inj in H. lia. }
  apply bind_ok in H as (r1 & H1 & H). apply math_ok, csub_inv in H1 as [-> _].
  apply bind_ok in H as (r2 & H2 & H). apply math_ok, csub_inv in H2 as [-> _].
  apply bind_ok in H as (r3 & H3 & H). apply math_ok, cfloor_inv in H3 as ->.
  apply math_ok, to_u64_inv in H as [-> _].
  rewrite Z.div_mul by (pose proof ONE_pos; lia). rewrite Z.mul_comm. apply floor_bounds, ONE_pos.
Qed.

Lemma change_asset_shares_exceeded b sh byp :
  change_asset_shares b sh byp = Err (E E_BankAssetCapacityExceeded) -> b_asset_tag b <> ASSET_TAG_DRIFT ->
  of_int (b_dep_limit b) <= (b_tas b + sh) * b_asv b / ONE.
Proof.
  unfold change_asset_shares, deposit_limit_fx. intros H Ht.
  destruct (math (cadd _ _)) as [tas'|e] eqn:E1 in H; cbn [bind] in H.
  2: { apply math_chko_err in E1. subst e. discriminate H. }
  apply math_ok, cadd_inv in E1 as [-> _]. destruct (_ && _) in H; [|discriminate H].
  cbn [set_b_tas b_asset_tag b_dep_limit] in H. replace (b_asset_tag b =? ASSET_TAG_DRIFT) with false in H by lia.
  destruct (get_asset_amount _ _) as [tot|e] eqn:E2 in H; cbn [bind] in H.
  2: { apply math_chko_err in E2. subst e. discriminate H. }
  apply get_asset_amount_inv in E2 as ->. destruct (_ <=? _) eqn:F in H; [|discriminate H]. exact (proj1 (Z.leb_le _ _) F).
Qed.

(* `remaining_deposit_capacity` is safe: adding shares worth at most n whole tokens, n up to the capacity, never trips
   the cap (`ashares b (of_int n)` are such shares, by ashares_le) *)
Lemma capacity_safe b c n sh :
  b_asset_tag b <> ASSET_TAG_DRIFT -> b_dep_limit b <> U64_MAX ->
  remaining_deposit_capacity b = Ok c -> n <= c -> 0 < c -> sh * b_asv b <= of_int n * ONE ->
  change_asset_shares b sh false <> Err (E E_BankAssetCapacityExceeded).
Proof.
  intros Htag Hlim Hc Hn Hcpos Hsh Hbad. pose proof ONE_pos.
  apply remaining_capacity_room in Hc; [|assumption..]. apply change_asset_shares_exceeded in Hbad; [|assumption].
  (* the new total is worth at most the old one plus the n tokens *)
  assert ((b_tas b + sh) * b_asv b / ONE <= b_tas b * b_asv b / ONE + of_int n).
  { rewrite <- Z.div_add by lia. apply Z.div_le_mono; lia. }
  unfold of_int in *. nia.
Qed.

(* C17 statements assembled from the inversion facts *)
Lemma deposit_under_cap b bl now delta t b' bl' :
  wf_sv b -> wf_bal bl -> 0 <= delta -> t <> IncBypassDepositLimit ->
  increase_balance b bl now delta t = Ok (b', bl') ->
  0 < ashares b (inc_a_inc b bl delta) -> b_dep_limit b <> U64_MAX -> b_asset_tag b <> ASSET_TAG_DRIFT ->
  b_tas b' * b_asv b' / ONE < of_int (b_dep_limit b').
Proof.
  intros Hsv Hbl Hd Ht H. pose proof (if_cap _ _ _ _ _ _ (increase_balance_inv _ _ _ _ _ _ _ Hsv Hbl Hd H)) as Fcap.
  destruct t; try contradiction; exact Fcap.
Qed.

Lemma borrow_under_cap_and_utilisation b bl now delta t b' bl' :
  wf_sv b -> wf_bal bl -> 0 <= delta -> t <> DecBypassBorrowLimit ->
  decrease_balance b bl now delta t = Ok (b', bl') ->
  (0 < lshares b (dec_l_inc b bl delta) -> b_bor_limit b <> U64_MAX ->
     b_tls b' * b_lsv b' / ONE < of_int (b_bor_limit b')) /\
  b_tls b' * b_lsv b' / ONE <= b_tas b' * b_asv b' / ONE.
Proof.
  intros Hsv Hbl Hd Ht H. pose proof (df_cap _ _ _ _ _ _ (decrease_balance_inv _ _ _ _ _ _ _ Hsv Hbl Hd H)) as Fcap.
  destruct t; try contradiction; exact Fcap.
Qed.

Lemma withdraw_all_utilisation b bl now b' bl' n :
  wf_sv b -> wf_bal bl -> withdraw_all b bl now = Ok (b', bl', n) ->
  b_tls b' * b_lsv b' / ONE <= b_tas b' * b_asv b' / ONE.
Proof. intros Hsv Hbl H. exact (wa_util _ _ _ _ _ (withdraw_all_inv _ _ _ _ _ _ Hsv Hbl H)). Qed.
