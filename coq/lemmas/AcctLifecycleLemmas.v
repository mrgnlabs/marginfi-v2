(* AcctLifecycleLemmas.v — C16: closing and transferring a marginfi account (model AcctLifecycle.v). *)
Require Import Base Constants TxConstants Fixed Curve Bank AcctLifecycle FixedLemmas HandlerLemmas.
From Coq Require Import ZifyBool.
Local Open Scope Z_scope.

Lemma Some_inj_l {A} (x y : A) : Some x = Some y -> x = y.
Proof. congruence. Qed.

(* a slot is empty: fewer than EMPTY_BALANCE_THRESHOLD (= 1.0) shares on both sides *)
Definition slot_empty (bl : balance) : Prop :=
  bl_a bl < EMPTY_BALANCE_THRESHOLD /\ bl_l bl < EMPTY_BALANCE_THRESHOLD.

Lemma get_side_none bl : get_side bl = Ok None <-> slot_empty bl.
Proof.
  unfold get_side, slot_empty, assert. split.
  - intros H. destruct ((bl_a bl <? EMPTY_BALANCE_THRESHOLD) || (bl_l bl <? EMPTY_BALANCE_THRESHOLD)) eqn:E; [|discriminate].
    cbn [bind] in H. destruct (EMPTY_BALANCE_THRESHOLD <=? bl_l bl) eqn:E1; [discriminate|].
    destruct (EMPTY_BALANCE_THRESHOLD <=? bl_a bl) eqn:E2; [discriminate|]. lia.
  - intros [Ha Hl]. replace ((bl_a bl <? EMPTY_BALANCE_THRESHOLD) || (bl_l bl <? EMPTY_BALANCE_THRESHOLD)) with true by lia.
    cbn [bind]. replace (EMPTY_BALANCE_THRESHOLD <=? bl_l bl) with false by lia.
    replace (EMPTY_BALANCE_THRESHOLD <=? bl_a bl) with false by lia. reflexivity.
Qed.

Lemma all_empty_true la : all_empty la = Ok true <-> Forall slot_empty la.
Proof.
  induction la as [|bl r IH]; cbn [all_empty].
  - split; [constructor | reflexivity].
  - split.
    + intros H. apply bind_ok in H as (s & Hs & H). destruct s as [sd|]; [discriminate|].
      constructor; [apply get_side_none; exact Hs | apply IH; exact H].
    + intros H. inversion H; subst. apply get_side_none in H2. rewrite H2. cbn [bind]. apply IH. assumption.
Qed.

Definition closable (A : macct) (signer : Z) : Prop :=
  ma_authority A = signer /\ mflag A ACCOUNT_FROZEN = false /\ mflag A ACCOUNT_DISABLED = false /\
  mflag A ACCOUNT_IN_FLASHLOAN = false /\ mflag A ACCOUNT_IN_RECEIVERSHIP = false /\
  Forall slot_empty (ma_la A).

Lemma close_iff w a signer w' :
  h_close w a signer = Ok w' <->
  exists A, get_macct w a = Ok A /\ closable A signer /\ w' = set_macct w a None.
Proof.
  unfold h_close, closable. split.
  - intros H. apply bind_ok in H as (A & HA & H). exists A. split; [exact HA|].
    apply bind_ok in H as (u & Hu & H). apply check_ok in Hu.
    destruct (mflag A ACCOUNT_FROZEN) eqn:Ef; [discriminate|].
    apply bind_ok in H as (ok & Hok & H). apply bind_ok in H as (u2 & Hc & H). apply check_ok in Hc. subst ok.
    apply Ok_inj in H. unfold can_be_closed in Hok. cbv zeta in Hok. apply bind_ok in Hok as (e & He & Hok).
    apply Ok_inj in Hok.
    destruct (mflag A ACCOUNT_DISABLED), e, (mflag A ACCOUNT_IN_FLASHLOAN), (mflag A ACCOUNT_IN_RECEIVERSHIP); try discriminate.
    apply all_empty_true in He. repeat split; auto. lia.
  - intros (A & HA & (Hs & Hf & Hd & Hfl & Hr & He) & ->). rewrite HA. cbn [bind].
    replace (ma_authority A =? signer) with true by lia. cbn [check bind]. rewrite Hf.
    unfold can_be_closed. cbv zeta. apply all_empty_true in He. rewrite He. cbn [bind]. rewrite Hd, Hfl, Hr. reflexivity.
Qed.

Lemma get_set_same w n v A : get_macct w n = Ok A -> get_macct (set_macct w n (Some v)) n = Ok v.
Proof.
  unfold get_macct, set_macct. cbn [lw_accts]. intros H.
  destruct (nth_error (lw_accts w) n) as [o|] eqn:E; [|discriminate].
  rewrite (nth_set_nth_same _ _ _ _ E). reflexivity.
Qed.

Lemma acct_key_nonzero n : acct_key n <> 0.
Proof. unfold acct_key. lia. Qed.


(* transfer_to_new_account, read off the handler: the checks that transfer_spec uses, and the two slots written *)
Lemma h_transfer_inv w old new signer na fw w' :
  h_transfer w old new signer na fw = Ok w' ->
  exists A ts, get_macct w old = Ok A /\ nth_error (lw_accts w) new = Some None /\
    mflag A ACCOUNT_IN_FLASHLOAN = false /\ mflag A ACCOUNT_IN_RECEIVERSHIP = false /\ ma_migrated_to A = 0 /\
    lw_accts w' =
      set_nth new (Some (mkMA (ma_la A) (ma_flags A) na (ma_group A) 0 (acct_key old) (ma_emissions_dest A) ts))
        (set_nth old (Some (mkMA la_zeroed (Z.lor (ma_flags A) ACCOUNT_DISABLED) (ma_authority A) (ma_group A)
                                 (acct_key new) (ma_migrated_from A) (ma_emissions_dest A) ts)) (lw_accts w)).
Proof.
  unfold h_transfer. intros H. apply bind_ok in H as (A & HA & H).
  apply bind_ok in H as (u0 & Hfresh & H).
  destruct (nth_error (lw_accts w) new) as [[x|]|] eqn:En; try discriminate.
  do 5 (apply bind_ok in H as (? & _ & H)).
  apply bind_ok in H as (u6 & Hfl & H). apply check_ok in Hfl.
  apply bind_ok in H as (u7 & Hrc & H). apply check_ok in Hrc.
  apply bind_ok in H as (u8 & Hmg & H). apply check_ok in Hmg. cbv zeta in H. apply Ok_inj in H. subst w'.
  exists A, (wrap_u 64 (lw_now w)). repeat split; try reflexivity; try assumption; lia.
Qed.

Record transferred (w w' : lworld) (old new : nat) (new_auth : Z) : Prop := {
  tr_distinct : old <> new;
  tr_fresh : nth_error (lw_accts w) new = Some None;
  tr_src : exists A A' N, get_macct w old = Ok A /\ get_macct w' old = Ok A' /\ get_macct w' new = Ok N /\
     (* the new account holds the whole lending account and the flags of the old one *)
     ma_la N = ma_la A /\ ma_flags N = ma_flags A /\ ma_authority N = new_auth /\ ma_group N = ma_group A /\
     ma_migrated_from N = acct_key old /\ ma_migrated_to N = 0 /\
     (* the old account is emptied, disabled and marked migrated *)
     ma_la A' = la_empty /\ mflag A' ACCOUNT_DISABLED = true /\ ma_migrated_to A' = acct_key new /\
     ma_authority A' = ma_authority A /\
     (* it was neither in a flash loan nor in receivership nor migrated before *)
     mflag A ACCOUNT_IN_FLASHLOAN = false /\ mflag A ACCOUNT_IN_RECEIVERSHIP = false /\ ma_migrated_to A = 0;
  (* exactly one new account: every other address is untouched *)
  tr_frame : forall k, k <> old -> k <> new -> nth_error (lw_accts w') k = nth_error (lw_accts w) k;
  tr_len : length (lw_accts w') = length (lw_accts w)
}.

Lemma transfer_spec w old new signer na fw w' :
  h_transfer w old new signer na fw = Ok w' -> transferred w w' old new na.
Proof.
  intros H. apply h_transfer_inv in H as (A & ts & HA & En & Hfl & Hrc & Hmg & E).
  assert (Hne : old <> new).
  { intros ->. unfold get_macct in HA. rewrite En in HA. discriminate. }
  assert (Eo : exists x, nth_error (lw_accts w) old = Some x).
  { unfold get_macct in HA. destruct (nth_error (lw_accts w) old); [eauto | discriminate]. }
  destruct Eo as (xo & Eo). constructor.
  - exact Hne.
  - exact En.
  - eexists A, _, _. split; [exact HA|]. unfold get_macct. rewrite E. split.
    + rewrite nth_set_nth_other by auto. rewrite (nth_set_nth_same _ _ _ _ Eo). reflexivity.
    + split; [erewrite nth_set_nth_same; [reflexivity|]; rewrite nth_set_nth_other by auto; exact En|].
      cbn [ma_la ma_flags ma_authority ma_group ma_migrated_from ma_migrated_to].
      repeat split; try reflexivity; try assumption. unfold mflag. cbn [ma_flags]. rewrite land_lor_absorb. reflexivity.
  - intros k Ko Kn. rewrite E, !nth_set_nth_other by auto. reflexivity.
  - rewrite E, !set_nth_len. reflexivity.
Qed.

Lemma migrated_no_transfer w old A new signer na fw :
  get_macct w old = Ok A -> ma_migrated_to A <> 0 -> exists e, h_transfer w old new signer na fw = Err e.
Proof.
  intros HA Hm. destruct (h_transfer w old new signer na fw) as [w'|e] eqn:H; [exfalso | eexists; reflexivity].
  apply h_transfer_inv in H as (A0 & ts & HA0 & _ & _ & _ & Hz & _). congruence.
Qed.
Lemma disabled_no_close w a A signer : get_macct w a = Ok A -> mflag A ACCOUNT_DISABLED = true ->
  exists e, h_close w a signer = Err e.
Proof.
  intros HA Hd. destruct (h_close w a signer) as [w'|e] eqn:H; [exfalso | eexists; reflexivity].
  apply close_iff in H as (A0 & HA0 & (_ & _ & Hd0 & _) & _). congruence.
Qed.

(* LSetFlags is test scaffolding, not an instruction *)
Definition real_op (o : lop) : Prop := match o with LSetFlags _ _ => False | _ => True end.
Definition retired (w : lworld) (a : nat) : Prop :=
  exists A, get_macct w a = Ok A /\ ma_migrated_to A <> 0 /\ mflag A ACCOUNT_DISABLED = true.

Lemma transfer_retires w old new signer na fw w' :
  h_transfer w old new signer na fw = Ok w' -> retired w' old.
Proof.
  intros H. apply transfer_spec in H. destruct H as [_ _ (A & A' & N & _ & HA' & _ & Hx) _ _].
  destruct Hx as (_ & _ & _ & _ & _ & _ & _ & Hd & Hm & _). exists A'. split; [exact HA'|].
  split; [rewrite Hm; apply acct_key_nonzero | exact Hd].
Qed.

Lemma transfer_once w old new signer na fw w' :
  h_transfer w old new signer na fw = Ok w' ->
  forall new2 signer2 na2 fw2, exists e, h_transfer w' old new2 signer2 na2 fw2 = Err e.
Proof.
  intros H new2 s2 na2 fw2. apply transfer_retires in H as (A' & HA' & Hm & _). eapply migrated_no_transfer; eauto.
Qed.

Lemma retired_step w a o : real_op o -> retired w a -> retired (lstep_total w o) a.
Proof.
  intros Hr (A & HA & Hm & Hd). unfold lstep_total. destruct (lstep w o) as [w'|e] eqn:H; [|exists A; auto].
  destruct o; cbn [lstep real_op] in *.
  - apply close_iff in H as (B & HB & Hc & ->). destruct (Nat.eq_dec a0 a) as [->|Hne].
    + destruct Hc as (_ & _ & Hd0 & _). congruence.
    + exists A. split; [|auto]. unfold get_macct, set_macct in *. cbn [lw_accts]. rewrite nth_set_nth_other by auto. exact HA.
  - apply transfer_spec in H. destruct H as [Hdist Hfresh (B & B' & N & HB & _ & _ & Hrest) Hframe _].
    destruct (Nat.eq_dec old a) as [->|Hno].
    + destruct Hrest as (_ & _ & _ & _ & _ & _ & _ & _ & _ & _ & _ & _ & Hz). congruence.
    + destruct (Nat.eq_dec new a) as [->|Hnn].
      * unfold get_macct in HA. rewrite Hfresh in HA. discriminate.
      * exists A. split; [|auto]. unfold get_macct in *. rewrite (Hframe a) by auto. exact HA.
  - contradiction.
  - apply Ok_inj in H. subst w'. exists A. auto.
  - apply Ok_inj in H. subst w'. exists A. auto.
Qed.

Lemma retired_run ops : Forall real_op ops -> forall w a, retired w a -> retired (lrun w ops) a.
Proof.
  induction 1 as [|o ops Ho _ IH]; intros w a Hr; cbn [lrun fold_left]; [exact Hr|].
  apply IH. apply retired_step; assumption.
Qed.
