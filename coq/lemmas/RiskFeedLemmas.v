(* RiskFeedLemmas.v — the feeds built from the oracle-adapter model (RiskFeed.feed_of_oracle: Fixed
   and Pyth push set-ups as used by the correspondence suite `risk`) never return the code
   RiskEngineInitRejected: the hypothesis `feeds_ng` of the converse half of C04 holds for them. *)
Require Import Base Constants Fixed Curve Bank BankOps Risk TransferFee Handlers Price RiskFeed.
Require Import ErrLemmas.
From Coq Require Import ZifyBool.
Local Open Scope Z_scope.

Lemma ng_okor {A} (r : res A) e : simple r -> e <> E E_RiskEngineInitRejected -> ng (ok_or r e).
Proof.
  intros Hs He H. destruct r as [a|[| |c]]; cbn in H; [discriminate | discriminate | | exact (Hs _ H)].
  apply He. congruence.
Qed.

Lemma simple_px_exp10 n : simple (px_exp10 n).
Proof. unfold px_exp10. simple_auto. Qed.
Lemma simple_px_assert b : simple (px_assert b).
Proof. unfold px_assert. simple_auto. Qed.
#[export] Hint Resolve simple_px_exp10 simple_px_assert : simple_db.

Lemma raises_pyth_components p e : raises (among [E_MathError]) (px_pyth_components p e).
Proof. unfold px_pyth_components, Price.EMath. raises_auto. Qed.
#[export] Hint Resolve raises_pyth_components : raises_db.
Lemma raises_px_price f t : raises (among [E_MathError]) (px_price f t).
Proof. unfold px_price, Price.EMath. raises_auto. Qed.
Lemma raises_px_scaled_conf f t : raises (among [E_MathError]) (px_scaled_conf f t).
Proof. unfold px_scaled_conf, Price.EMath. raises_auto. Qed.
#[export] Hint Resolve raises_px_price raises_px_scaled_conf : raises_db.
Lemma raises_px_conf_check ci p omc :
  raises (among [E_MathError; E_OracleMaxConfidenceExceeded]) (px_conf_check_and_cap ci p omc).
Proof. unfold px_conf_check_and_cap, Price.EMath. raises_auto. Qed.
#[export] Hint Resolve raises_px_conf_check : raises_db.
Lemma raises_px_conf_interval f t omc :
  raises (among [E_MathError; E_OracleMaxConfidenceExceeded]) (px_conf_interval f t omc).
Proof. unfold px_conf_interval. raises_auto. Qed.
#[export] Hint Resolve raises_px_conf_interval : raises_db.
Lemma raises_px_price_of_type f t b omc :
  raises (among [E_MathError; E_OracleMaxConfidenceExceeded]) (px_price_of_type f t b omc).
Proof. unfold px_price_of_type, Price.EMath. raises_auto. Qed.
#[export] Hint Resolve raises_px_price_of_type : raises_db.

Lemma raises_px_pyth_account a :
  raises (among [E_PythPushWrongAccountOwner; PE_BORSH_IO; E_PythPushInvalidAccount]) (px_pyth_account a).
Proof. unfold px_pyth_account. raises_auto. Qed.
#[export] Hint Resolve raises_px_pyth_account : raises_db.
Lemma raises_px_pyth_load_checked a now ma :
  raises (among [E_PythPushWrongAccountOwner; PE_BORSH_IO; E_PythPushInvalidAccount;
                 E_PythPushInsufficientVerificationLevel; E_PythPushStalePrice]) (px_pyth_load_checked a now ma).
Proof. unfold px_pyth_load_checked. raises_auto. Qed.
#[export] Hint Resolve raises_px_pyth_load_checked : raises_db.

Lemma ng_pyth_components p e : ng (px_pyth_components p e).
Proof. exact (among_ng _ _ (raises_pyth_components p e) eq_refl). Qed.
Lemma ng_px_price f t : ng (px_price f t).
Proof. exact (among_ng _ _ (raises_px_price f t) eq_refl). Qed.
Lemma ng_px_scaled_conf f t : ng (px_scaled_conf f t).
Proof. exact (among_ng _ _ (raises_px_scaled_conf f t) eq_refl). Qed.
Lemma ng_px_conf_check ci p omc : ng (px_conf_check_and_cap ci p omc).
Proof. exact (among_ng _ _ (raises_px_conf_check ci p omc) eq_refl). Qed.
Lemma ng_px_conf_interval f t omc : ng (px_conf_interval f t omc).
Proof. exact (among_ng _ _ (raises_px_conf_interval f t omc) eq_refl). Qed.
Lemma ng_px_price_of_type f t b omc : ng (px_price_of_type f t b omc).
Proof. exact (among_ng _ _ (raises_px_price_of_type f t b omc) eq_refl). Qed.
Lemma ng_px_pyth_account a : ng (px_pyth_account a).
Proof. exact (among_ng _ _ (raises_px_pyth_account a) eq_refl). Qed.
Lemma ng_px_pyth_load_checked a now ma : ng (px_pyth_load_checked a now ma).
Proof. exact (among_ng _ _ (raises_px_pyth_load_checked a now ma) eq_refl). Qed.

Lemma ng_try_from_bank c ais vn sk ck :
  oc_setup c = OS_Fixed \/ oc_setup c = OS_PythPushOracle ->
  ng (px_try_from_bank c ais vn sk ck).
Proof.
  intros Hs. apply ng_raises. unfold px_try_from_bank, px_try_from_bank_with_max_age, ENum, EKeys.
  destruct Hs as [-> | ->]; cbn [Z.eqb OS_None OS_Fixed OS_PythPushOracle OS_SwitchboardPull OS_StakedWithPythPush
    OS_KaminoPythPush OS_KaminoSwitchboardPull Pos.eqb]; raises_auto.
Qed.
