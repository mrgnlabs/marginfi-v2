(* PayoutLemmas.v — proofs about model/Payout.v (fee / insurance / emissions vault drawdowns and their destinations). *)
Require Import Base Constants TxConstants Fixed Curve Bank Payout FixedLemmas BankLemmas.
From Coq Require Import ZifyBool.
Local Open Scope Z_scope.

Lemma credit_cons t ts k a :
  credit (t :: ts) k a = (if tk_key t =? k then mkTok (tk_key t) (tk_mint t) (tk_amt t + a) else t) :: credit ts k a.
Proof. reflexivity. Qed.
Lemma tok_total_cons mint t ts :
  tok_total mint (t :: ts) = (if tk_mint t =? mint then tk_amt t else 0) + tok_total mint ts.
Proof. reflexivity. Qed.

Lemma credit_keys ts k a : map tk_key (credit ts k a) = map tk_key ts.
Proof. unfold credit. rewrite map_map. apply map_ext. intros t. destruct (tk_key t =? k); reflexivity. Qed.

Lemma credit_mints ts k a : map tk_mint (credit ts k a) = map tk_mint ts.
Proof. unfold credit. rewrite map_map. apply map_ext. intros t. destruct (tk_key t =? k); reflexivity. Qed.

Lemma find_tok_key ts k t : find_tok ts k = Some t -> tk_key t = k.
Proof. unfold find_tok. intros H. apply find_some in H. destruct H as [_ H]. lia. Qed.

Lemma tok_amt_credit_other ts k a k' : k' <> k -> tok_amt (credit ts k a) k' = tok_amt ts k'.
Proof.
  intros Hne. unfold tok_amt, find_tok, credit.
  induction ts as [|t ts IH]; cbn [map find]; [reflexivity|].
  destruct (tk_key t =? k) eqn:Ek; cbn [tk_key].
  - destruct (tk_key t =? k') eqn:Ek'; [lia|]. exact IH.
  - destruct (tk_key t =? k') eqn:Ek'; [reflexivity|]. exact IH.
Qed.

Lemma tok_amt_credit_same ts k a t : find_tok ts k = Some t -> tok_amt (credit ts k a) k = tok_amt ts k + a.
Proof.
  unfold tok_amt, find_tok, credit.
  induction ts as [|t0 ts IH]; cbn [map find]; [discriminate|].
  destruct (tk_key t0 =? k) eqn:Ek; cbn [tk_key]; rewrite ?Ek.
  - intros _. cbn [tk_amt]. reflexivity.
  - exact IH.
Qed.

(* keys are unique in a well-formed table; then a credit raises the mint's total by exactly the amount *)
Lemma tok_total_credit_absent mint ts k a : ~ In k (map tk_key ts) -> tok_total mint (credit ts k a) = tok_total mint ts.
Proof.
  induction ts as [|t ts IH]; [reflexivity|]. cbn [map In]. intros Hn.
  rewrite credit_cons, !tok_total_cons, IH by tauto.
  destruct (tk_key t =? k) eqn:Ek; [exfalso; apply Hn; left; lia | reflexivity].
Qed.

Lemma tok_total_credit mint ts k a t :
  NoDup (map tk_key ts) -> find_tok ts k = Some t ->
  tok_total mint (credit ts k a) = tok_total mint ts + (if tk_mint t =? mint then a else 0).
Proof.
  unfold find_tok. induction ts as [|t0 ts IH]; cbn [map find]; [discriminate|].
  intros Hnd Hf. inversion Hnd as [|x l Hnot Hnd']; subst.
  rewrite credit_cons, !tok_total_cons. destruct (tk_key t0 =? k) eqn:Ek.
  - injection Hf as ->. rewrite tok_total_credit_absent by (replace k with (tk_key t) by lia; exact Hnot).
    cbn [tk_mint tk_amt]. destruct (tk_mint t =? mint); lia.
  - rewrite (IH Hnd' Hf). lia.
Qed.

Lemma vault_pay_inv vault amount mint ts dst v ts' :
  vault_pay vault amount mint ts dst = Ok (v, ts') ->
  exists t, find_tok ts dst = Some t /\ amount <= vault /\ tk_mint t = mint /\ v = vault - amount /\ ts' = credit ts dst amount.
Proof.
  unfold vault_pay. destruct (find_tok ts dst) as [t|] eqn:Ef; [|discriminate].
  intros H. apply bind_ok in H as (u1 & H1 & H). apply check_ok in H1.
  apply bind_ok in H as (u2 & H2 & H). apply check_ok in H2.
  apply pair_ok in H as [<- <-]. exists t. repeat split; lia.
Qed.

(* who may trigger an emissions payout into the token account d *)
Definition em_route (w : payw) (signer : Z) (op : pay_op) (d : Z) : Prop :=
  (op = YWithdrawEmissions d /\ authorized w signer = true) \/
  (op = YWithdrawEmissionsPermissionless d /\ y_em_wallet w <> 0 /\ d = ata (y_em_wallet w) /\ aflag w ACCOUNT_FROZEN = false).

(* pay_step as a relation: one rule per way an instruction succeeds, the new state written out *)
Inductive pay_done (w : payw) (signer : Z) : pay_op -> payw -> Prop :=
| PdFees d a t :
    signer = y_admin w -> find_tok (y_toks w) d = Some t -> tk_mint t = MINT_BANK -> a <= y_fee_vault w ->
    pay_done w signer (YWithdrawFees d a) (set_toks (credit (y_toks w) d a) (set_fee_vault (y_fee_vault w - a) w))
| PdFeesTo d a t (amt := Z.min a (y_fee_vault w)) :
    d = y_fee_dest w -> find_tok (y_toks w) d = Some t -> tk_mint t = MINT_BANK ->
    pay_done w signer (YWithdrawFeesPermissionless d a)
             (set_toks (credit (y_toks w) d amt) (set_fee_vault (y_fee_vault w - amt) w))
| PdFeesDest d t :
    signer = y_admin w -> find_tok (y_toks w) d = Some t -> tk_mint t = MINT_BANK ->
    pay_done w signer (YUpdateFeesDest d) (set_fee_dest d w)
| PdInsurance d a t :
    signer = y_admin w -> find_tok (y_toks w) d = Some t -> tk_mint t = MINT_BANK -> a <= y_ins_vault w ->
    pay_done w signer (YWithdrawInsurance d a) (set_toks (credit (y_toks w) d a) (set_ins_vault (y_ins_vault w - a) w))
| PdEmissions op d bk bl n t :
    em_route w signer op d -> aflag w ACCOUNT_DISABLED = false ->
    settle_emissions (y_bank w) (y_bal w) (y_now w) = Ok (bk, bl, n) ->
    0 < n <= y_em_vault w -> find_tok (y_toks w) d = Some t -> tk_mint t = MINT_EM ->
    pay_done w signer op
             (set_toks (credit (y_toks w) d n) (set_em_vault (y_em_vault w - n) (set_acct_last (y_now w) (set_bank_bal bk bl w))))
| PdEmissionsNone op d bk bl n :
    em_route w signer op d -> settle_emissions (y_bank w) (y_bal w) (y_now w) = Ok (bk, bl, n) -> n <= 0 ->
    pay_done w signer op (set_bank_bal bk bl w)
| PdSettle bk bl :
    claim_emissions (y_bank w) (y_bal w) (y_now w) = Ok (bk, bl) ->
    pay_done w signer YSettle (set_acct_last (y_now w) (set_bank_bal bk bl w))
| PdEmissionsDest wl :
    signer = y_auth w -> aflag w ACCOUNT_DISABLED = false -> aflag w ACCOUNT_FROZEN = false ->
    pay_done w signer (YUpdateEmissionsDest wl) (set_acct_last (y_now w) (set_em_wallet wl w))
| PdTick dt : pay_done w signer (YTick dt) (set_now (y_now w + Z.max 0 dt) w)
| PdSetFlags f : pay_done w signer (YSetFlags f) (set_aflags f w).

Lemma pay_emissions_done w signer op d w' :
  em_route w signer op d -> aflag w ACCOUNT_DISABLED = false -> pay_emissions w d = Ok w' -> pay_done w signer op w'.
Proof.
  unfold pay_emissions. intros Hr Hd H. apply bind_ok in H as ([[bk bl] n] & Hs & H). destruct (0 <? n) eqn:En.
  - apply bind_ok in H as ([v ts] & Hp & H). apply vault_pay_inv in Hp as (t & Hf & Hle & Hm & -> & ->).
    apply Ok_inj in H as <-. apply (PdEmissions _ _ _ _ _ _ _ t Hr Hd Hs); [lia | assumption..].
  - apply Ok_inj in H as <-. apply (PdEmissionsNone _ _ _ _ _ _ _ Hr Hs). lia.
Qed.

Lemma negb_check c e u : check (negb c) e = Ok u -> c = false.
Proof. destruct c; [discriminate | reflexivity]. Qed.

Lemma pay_step_done w signer op w' : pay_step w signer op = Ok w' -> pay_done w signer op w'.
Proof.
  destruct op as [d a|d a|d|d a|d|d| |wl|dt|f]; cbn [pay_step]; intros H.
  - unfold ix_withdraw_fees in H. apply bind_ok in H as (u & Hs & H). apply check_ok in Hs.
    apply bind_ok in H as ([v ts] & Hp & H). apply vault_pay_inv in Hp as (t & Hf & Hle & Hm & -> & ->).
    apply Ok_inj in H as <-. apply (PdFees _ _ _ _ t); [lia | assumption..].
  - unfold ix_withdraw_fees_permissionless in H. destruct (find_tok (y_toks w) d) as [t|] eqn:Hf; [|discriminate].
    apply bind_ok in H as (u1 & Hd & H). apply check_ok in Hd. apply bind_ok in H as (u2 & Hm & H). apply check_ok in Hm.
    apply bind_ok in H as ([v ts] & Hp & H). apply vault_pay_inv in Hp as (_ & _ & _ & _ & -> & ->).
    apply Ok_inj in H as <-. apply (PdFeesTo _ _ _ _ t); [lia | assumption | lia].
  - unfold ix_update_fees_destination in H. destruct (find_tok (y_toks w) d) as [t|] eqn:Hf; [|discriminate].
    apply bind_ok in H as (u1 & Hs & H). apply check_ok in Hs. apply bind_ok in H as (u2 & Hm & H). apply check_ok in Hm.
    apply Ok_inj in H as <-. apply (PdFeesDest _ _ _ t); [lia | assumption | lia].
  - unfold ix_withdraw_insurance in H. apply bind_ok in H as (u & Hs & H). apply check_ok in Hs.
    apply bind_ok in H as ([v ts] & Hp & H). apply vault_pay_inv in Hp as (t & Hf & Hle & Hm & -> & ->).
    apply Ok_inj in H as <-. apply (PdInsurance _ _ _ _ t); [lia | assumption..].
  - unfold ix_withdraw_emissions in H. destruct (find_tok (y_toks w) d); [|discriminate].
    apply bind_ok in H as (u1 & _ & H). apply bind_ok in H as (u2 & Ha & H). apply check_ok in Ha.
    apply bind_ok in H as (u3 & Hd & H). apply negb_check in Hd.
    apply (pay_emissions_done _ _ _ d); [left; split; [reflexivity | exact Ha] | assumption..].
  - unfold ix_withdraw_emissions_permissionless in H. destruct (find_tok (y_toks w) d); [|discriminate].
    apply bind_ok in H as (u1 & Hd & H). apply negb_check in Hd. apply bind_ok in H as (u2 & Hfz & H). apply negb_check in Hfz.
    apply bind_ok in H as (u3 & Hw & H). apply negb_check in Hw. apply bind_ok in H as (u4 & Ht & H). apply check_ok in Ht.
    apply (pay_emissions_done _ _ _ d); [right; repeat split; [lia | lia | exact Hfz] | assumption..].
  - unfold ix_settle_emissions in H. apply bind_ok in H as ([bk bl] & Hc & H). apply Ok_inj in H as <-.
    exact (PdSettle _ _ _ _ Hc).
  - unfold ix_update_emissions_destination in H. apply bind_ok in H as (u1 & Hs & H). apply check_ok in Hs.
    apply bind_ok in H as (u2 & Hd & H). apply negb_check in Hd. apply bind_ok in H as (u3 & Hfz & H). apply negb_check in Hfz.
    apply Ok_inj in H as <-. apply PdEmissionsDest; [lia | assumption..].
  - apply Ok_inj in H as <-. constructor.
  - apply Ok_inj in H as <-. constructor.
Qed.

Ltac ysimpl := cbn [y_admin y_auth y_aflags y_fee_dest y_em_wallet y_fee_vault y_ins_vault y_em_vault y_toks y_bank y_bal
                    y_now y_acct_last set_fee_vault set_ins_vault set_em_vault set_toks set_fee_dest set_em_wallet
                    set_bank_bal set_acct_last set_now set_aflags] in *.

Definition pay_wf (w : payw) : Prop :=
  NoDup (map tk_key (y_toks w)) /\ 0 <= y_fee_vault w /\ 0 <= y_ins_vault w /\ 0 <= y_em_vault w.

(* 'the emissions vault covers what is still to be credited plus what the position has been credited and not yet paid' *)
Definition em_covered (w : payw) : Prop :=
  b_em_rem (y_bank w) + bl_em (y_bal w) <= y_em_vault w * ONE.

Definition pay_inv (w : payw) : Prop := pay_wf w /\ em_covered w.

(* tokens are neither created nor destroyed: per mint, vaults + token accounts stay constant *)
Definition supply_bank (w : payw) : Z := y_fee_vault w + y_ins_vault w + tok_total MINT_BANK (y_toks w).
Definition supply_em (w : payw) : Z := y_em_vault w + tok_total MINT_EM (y_toks w).

Definition pay_kept (w w' : payw) : Prop :=
  pay_inv w' /\ supply_bank w' = supply_bank w /\ supply_em w' = supply_em w /\
  y_admin w' = y_admin w /\ y_auth w' = y_auth w.

Lemma pay_kept_refl w : pay_inv w -> pay_kept w w.
Proof. intros Hi. repeat split; try reflexivity; apply Hi. Qed.

Lemma pay_kept_trans w1 w2 w3 : pay_kept w1 w2 -> pay_kept w2 w3 -> pay_kept w1 w3.
Proof. intros (_ & B1 & E1 & A1 & U1) (I & B2 & E2 & A2 & U2). repeat split; try apply I; congruence. Qed.

Lemma settle_cover b bl now b' bl' n :
  settle_emissions b bl now = Ok (b', bl', n) ->
  b_em_rem b' + bl_em bl' + n * ONE = b_em_rem b + bl_em bl /\ 0 <= n.
Proof.
  intros H. destruct (settle_emissions_exact _ _ _ _ _ _ H) as (b1 & bl1 & Hc & -> & Hn & Hr & Hnn).
  destruct (claim_emissions_conserves _ _ _ _ _ Hc) as [Hcons _]. lia.
Qed.

(* In every rule the new state is written out, so the claim is arithmetic once the effect of a credit on the totals
   (tok_total_credit) and of a settlement on the emission amounts (settle_cover) are put in. *)
Lemma pay_step_inv w signer op w' : pay_inv w -> pay_step w signer op = Ok w' -> pay_kept w w'.
Proof.
  intros [(Hnd & Hf0 & Hi0 & He0) Hcov] H. apply pay_step_done in H.
  unfold pay_kept, pay_inv, pay_wf, em_covered, supply_bank, supply_em in *.
  destruct H as [d a t _ Hf Hm Hle | d a t amt _ Hf Hm | | d a t _ Hf Hm Hle
                | op d bk bl n t _ _ Hs%settle_cover Hn Hf Hm | op d bk bl n _ Hs%settle_cover Hn
                | bk bl Hc%claim_emissions_conserves | | |]; ysimpl.
  all: rewrite ?credit_keys, ?(tok_total_credit _ _ _ _ _ Hnd Hf), ?Hm; unfold MINT_BANK, MINT_EM; cbn [Z.eqb Pos.eqb].
  6: replace n with 0 in Hs by lia.   (* nothing was due: n <= 0 *)
  all: repeat split; try assumption; lia.
Qed.

Lemma pay_run_inv ops : forall w, pay_inv w -> pay_kept w (pay_run w ops).
Proof.
  induction ops as [|[s o] ops IH]; intros w Hi; cbn [pay_run fold_left].
  - exact (pay_kept_refl w Hi).
  - assert (K : pay_kept w (pay_apply w (s, o))).
    { unfold pay_apply. cbn [fst snd]. destruct (pay_step w s o) eqn:Es.
      - exact (pay_step_inv _ _ _ _ Hi Es).
      - exact (pay_kept_refl w Hi). }
    exact (pay_kept_trans _ _ _ K (IH _ (proj1 K))).
Qed.

(* the vault-side statement of the property text: at every reachable state the emissions vault holds at least the funded
   remaining amount plus the position's unpaid credit *)
Lemma em_vault_covers_always ops w : pay_inv w ->
  b_em_rem (y_bank (pay_run w ops)) + bl_em (y_bal (pay_run w ops)) <= y_em_vault (pay_run w ops) * ONE.
Proof. intros Hi. exact (proj2 (proj1 (pay_run_inv ops w Hi))). Qed.
