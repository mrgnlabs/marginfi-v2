(* PriceLemmas.v — C09: what a successfully loaded feed / a successfully computed price implies. *)
Require Import Base Constants Fixed Price FixedLemmas NumLemmas.
From Coq Require Import ZifyBool.
Local Open Scope Z_scope.

Lemma px_assert_ok b u : px_assert b = Ok u -> b = true.
Proof. destruct b; [reflexivity | discriminate]. Qed.
Lemma bind_err {A B} (r : res A) (f : A -> res B) e : r = Err e -> bind r f = Err e.
Proof. intros ->; reflexivity. Qed.

Definition pyth_setups : list Z := [OS_PythPushOracle; OS_StakedWithPythPush; OS_KaminoPythPush; OS_DriftPythPull; OS_SolendPythPull].
Definition swb_setups : list Z := [OS_SwitchboardPull; OS_KaminoSwitchboardPull; OS_DriftSwitchboardPull; OS_SolendSwitchboardPull].
Definition venue_setups : list Z := [OS_KaminoPythPush; OS_KaminoSwitchboardPull; OS_DriftPythPull; OS_DriftSwitchboardPull;
                                     OS_SolendPythPull; OS_SolendSwitchboardPull].

(* raw acceptance conditions, exactly as the code evaluates them *)
Definition pyth_accepted (a : oacct) (now max_age : Z) : Prop :=
  oa_owner a = PYTH_RECEIVER_ID /\
  exists m, oa_body a = BPyth m /\ pm_full m = true /\ max_age <= I64_MAX /\
            now <= sat_i64 (pm_publish m + max_age).
Definition swb_accepted (a : oacct) (now max_age : Z) : Prop :=
  oa_owner a = SWITCHBOARD_PULL_ID /\
  exists m, oa_body a = BSwb m /\ sat_i64 (now - sm_last_update m) <= wrap_s 64 max_age.

Definition first_account_accepted (c : ocfg) (ais : list oacct) (now max_age : Z) : Prop :=
  exists a rest, ais = a :: rest /\ oa_key a = oc_key0 c /\
    ((In (oc_setup c) pyth_setups /\ pyth_accepted a now max_age) \/
     (In (oc_setup c) swb_setups /\ swb_accepted a now max_age)).

Lemma pyth_load_inv a now ma f :
  px_pyth_load_checked a now ma = Ok f ->
  pyth_accepted a now ma /\
  exists m, oa_body a = BPyth m /\ f = FPyth (pm_price m) (pm_conf m) (pm_expo m) (pm_ema_price m) (pm_ema_conf m).
Proof.
  unfold px_pyth_load_checked, px_pyth_account. intros H.
  apply bind_ok in H as (m & Hm & H). apply bind_check in Hm as [Ho Hm].
  assert (Hb : oa_body a = BPyth m) by (destruct (oa_body a); try discriminate; apply Ok_inj in Hm as ->; reflexivity).
  apply bind_check in H as [Hfull H]. apply bind_ok in H as (ma' & Hma & H). apply chk_inv in Hma as [-> Hr].
  apply in_range_iff in Hr. apply bind_check in H as [Hfresh H]. apply Ok_inj in H as <-.
  split; [|eauto]. split; [lia|]. exists m. repeat split; (assumption || lia).
Qed.

Lemma swb_load_inv a now ma f :
  px_swb_load_checked a now ma = Ok f ->
  swb_accepted a now ma /\ exists m, oa_body a = BSwb m /\ f = FSwb (sm_value m) (sm_std_dev m).
Proof.
  unfold px_swb_load_checked, px_swb_parse. intros H.
  apply bind_check in H as [Ho H]. apply bind_ok in H as (m & Hm & H).
  assert (Hb : oa_body a = BSwb m) by (destruct (oa_body a); try discriminate; apply Ok_inj in Hm as ->; reflexivity).
  destruct (wrap_s 64 ma <? sat_i64 (now - sm_last_update m)) eqn:Hs; [discriminate|]. apply Ok_inj in H as <-.
  split; [|eauto]. split; [lia|]. exists m. split; [assumption | lia].
Qed.

Lemma pyth_owned_inv a oe now ma f :
  px_pyth_owned a oe now ma = Ok f -> px_pyth_load_checked a now ma = Ok f.
Proof. intros H. apply bind_check in H as [_ H]. exact H. Qed.

Lemma loader_bind {A} l e (k : res A) v : (let* _ := px_check_loader l e in k) = Ok v -> l = VLOk /\ k = Ok v.
Proof. destruct l; [auto | discriminate | discriminate]. Qed.

(* the checks that open the Kamino, Drift and Solend arms *)
Lemma venue_checks_inv {A} k0 k1 l stale ev es (rest : res A) v :
  (let* _ := check k0 EKeys in let* _ := check k1 (E ev) in let* _ := px_check_loader l ev in
   let* _ := check (negb stale) (E es) in rest) = Ok v ->
  k0 = true /\ k1 = true /\ l = VLOk /\ stale = false /\ rest = Ok v.
Proof.
  intros H. apply bind_check in H as [H0 H]. apply bind_check in H as [H1 H].
  apply loader_bind in H as [Hl H]. apply bind_check in H as [Hs H]. destruct stale; [discriminate | auto].
Qed.

Lemma first_account c a rest now ma :
  (oa_key a =? oc_key0 c) = true ->
  (In (oc_setup c) pyth_setups /\ exists f, px_pyth_load_checked a now ma = Ok f) \/
  (In (oc_setup c) swb_setups /\ exists f, px_swb_load_checked a now ma = Ok f) ->
  first_account_accepted c (a :: rest) now ma.
Proof.
  intros Hk H. exists a, rest. split; [reflexivity|]. split; [lia|].
  destruct H as [[Hs [f H]]|[Hs [f H]]]; [left; apply pyth_load_inv in H | right; apply swb_load_inv in H];
    split; (assumption || apply H).
Qed.

Theorem load_authentic c ais vn sk ck ma f :
  px_try_from_bank_with_max_age c ais vn sk ck ma = Ok f ->
  (oc_setup c = OS_Fixed /\ ais = [] /\ f = FFixed (oc_fixed_price c) /\ 0 <= oc_fixed_price c) \/
  first_account_accepted c ais (ck_now ck) ma.
Proof.
  intros H. unfold px_try_from_bank_with_max_age in H.
  (* down the chain of setup tests, then by the number of accounts: ten arms can succeed *)
  cbv beta iota zeta in H;
    repeat (match type of H with (if oc_setup c =? ?k then _ else _) = _ => destruct (oc_setup c =? k) eqn:? end; cbv beta iota in H; try discriminate H);
    destruct ais as [|a [|a1 [|a2 [|? ?]]]]; try discriminate H.
  (* PythPushOracle, SwitchboardPull *)
  - apply bind_check in H as [_ H]. apply bind_check in H as [Hk H].
    right. apply first_account; [assumption|]. left. split; [unfold pyth_setups, In; lia | eauto].
  - apply bind_check in H as [Hk H].
    right. apply first_account; [assumption|]. right. split; [unfold swb_setups, In; lia | eauto].
  (* StakedWithPythPush *)
  - apply bind_check in H as [_ H]. apply bind_ok in H as (supply & _ & H). apply bind_check in H as [_ H].
    apply bind_ok in H as (stake & _ & H). apply bind_ok in H as (adj & _ & H). apply bind_check in H as [Hk H].
    apply bind_ok in H as (f0 & Hf & _). apply pyth_owned_inv in Hf.
    right. apply first_account; [assumption|]. left. split; [unfold pyth_setups, In; lia | eauto].
  (* Kamino with a Pyth, a Switchboard feed *)
  - apply venue_checks_inv in H as (Hk & _ & _ & _ & H). apply bind_ok in H as (f0 & Hf & _). apply pyth_owned_inv in Hf.
    right. apply first_account; [assumption|]. left. split; [unfold pyth_setups, In; lia | eauto].
  - apply venue_checks_inv in H as (Hk & _ & _ & _ & H). apply bind_ok in H as (f0 & Hf & _).
    right. apply first_account; [assumption|]. right. split; [unfold swb_setups, In; lia | eauto].
  (* Fixed *)
  - apply bind_check in H as [Hp H]. apply Ok_inj in H as <-. left. repeat split; lia.
  (* Drift *)
  - apply venue_checks_inv in H as (Hk & _ & _ & _ & H). apply bind_ok in H as (f0 & Hf & _). apply pyth_owned_inv in Hf.
    right. apply first_account; [assumption|]. left. split; [unfold pyth_setups, In; lia | eauto].
  - apply venue_checks_inv in H as (Hk & _ & _ & _ & H). apply bind_ok in H as (f0 & Hf & _).
    right. apply first_account; [assumption|]. right. split; [unfold swb_setups, In; lia | eauto].
  (* Solend; with a Pyth feed the first key is tested last *)
  - apply bind_check in H as [_ H]. apply loader_bind in H as [_ H]. apply bind_check in H as [_ H].
    apply bind_check in H as [Hk H]. apply bind_ok in H as (f0 & Hf & _). apply pyth_owned_inv in Hf.
    right. apply first_account; [assumption|]. left. split; [unfold pyth_setups, In; lia | eauto].
  - apply venue_checks_inv in H as (Hk & _ & _ & _ & H). apply bind_ok in H as (f0 & Hf & _).
    right. apply first_account; [assumption|]. right. split; [unfold swb_setups, In; lia | eauto].
Qed.

(* freshness in plain arithmetic.
   Pyth: publish_time.saturating_add(max_age) >= now  means  now - publish_time <= max_age *)
Lemma pyth_fresh now publish ma :
  I64_MIN <= publish -> 0 <= ma -> now <= sat_i64 (publish + ma) -> now - publish <= ma.
Proof. unfold sat_i64, clamp. rewrite I64_MIN_val, I64_MAX_val. lia. Qed.

(* Switchboard: now.saturating_sub(last) > max_age as i64 is false  means  now - last <= max_age,
   for every max_age below i64::MAX (the cast wraps above it) *)
Lemma swb_fresh now last ma :
  0 <= ma -> ma <> I64_MAX -> ma <= U64_MAX -> sat_i64 (now - last) <= wrap_s 64 ma -> now - last <= ma.
Proof.
  intros H0 Hne Hu. rewrite wrap_s64 by lia. unfold sat_i64, clamp.
  rewrite I64_MIN_val, I64_MAX_val in *. rewrite U64_MAX_val in Hu. destruct (ma <? 2^63) eqn:E; lia.
Qed.

Lemma MAXCI_val : MAX_CONF_INTERVAL = 14073748835533. Proof. reflexivity. Qed.

(* the configured maximum as a plain u32 numerator over u32::MAX; 0 selects the default 10% *)
Definition max_conf_num (omc : Z) : Z := if 0 <? omc then omc else 429496730.

Lemma max_conf_factor_val omc : px_max_conf_factor omc = max_conf_num omc * ONE.
Proof. unfold px_max_conf_factor, max_conf_num, of_int. destruct (0 <? omc); reflexivity. Qed.

Lemma conf_cap_inv ci price omc d :
  0 <= omc ->
  px_conf_check_and_cap ci price omc = Ok d ->
  0 <= ci /\ 0 <= price /\ ci * 4294967295 <= price * max_conf_num omc /\
  d = Z.min ci (price * MAX_CONF_INTERVAL / ONE).
Proof.
  intros Homc H. unfold px_conf_check_and_cap in H. pose proof ONE_pos as HO.
  apply bind_ok in H as (m & Hm & H). apply ok_or_inv, cmul_inv in Hm as [Em _].
  rewrite max_conf_factor_val, Z.mul_assoc, Z.div_mul in Em by lia.
  apply bind_ok in H as (mc & Hmc & H). apply ok_or_inv in Hmc.
  destruct (mc <? ci) eqn:Hlt; [discriminate|].
  apply bind_ok in H as (cap & Hcap & H). apply ok_or_inv, cmul_inv in Hcap as [Ecap _].
  apply bind_ok in H as (u1 & Ha1 & H). apply px_assert_ok in Ha1.
  apply bind_ok in H as (u2 & Ha2 & H). apply px_assert_ok in Ha2. apply Ok_inj in H.
  assert (Hp : 0 <= price).
  { destruct (Z_le_gt_dec 0 price) as [?|Hneg]; [assumption|exfalso].
    assert (price * MAX_CONF_INTERVAL / ONE < 0) by (apply Z.div_lt_upper_bound; [|rewrite MAXCI_val]; lia).
    lia. }
  assert (Hk : 0 < max_conf_num omc) by (unfold max_conf_num; destruct (0 <? omc) eqn:E; lia).
  change U32_MAX_FX with (4294967295 * ONE) in Hmc.
  apply cdiv_inv_nonneg in Hmc as [Emc _]; [|nia|lia].
  rewrite Z.div_mul_cancel_r in Emc by lia.
  pose proof (Z.mul_div_le m 4294967295 ltac:(lia)). unfold fmin in H. repeat split; lia.
Qed.

Definition is_fixed (f : feed) : bool := match f with FFixed _ => true | _ => false end.

Lemma pot_nonfixed f t b omc :
  is_fixed f = false ->
  px_price_of_type f t b omc =
  (let* price := px_price f t in
   match b with
   | None => Ok price
   | Some bias =>
       let* ci := px_conf_interval f t omc in
       match bias with PLow => ok_or (csub price ci) EMath | PHigh => ok_or (cadd price ci) EMath end
   end).
Proof. destruct f; intros H; try reflexivity. discriminate. Qed.

Lemma conf_interval_nonfixed f t omc :
  is_fixed f = false ->
  px_conf_interval f t omc =
  (let* ci := px_scaled_conf f t in let* price := px_price f t in px_conf_check_and_cap ci price omc).
Proof. destruct f; intros H; try reflexivity. discriminate. Qed.

Definition bias_apply (b : pbias) (price d : Z) : Z := match b with PLow => price - d | PHigh => price + d end.

Lemma biased_inv f t b omc p :
  0 <= omc -> is_fixed f = false ->
  px_price_of_type f t (Some b) omc = Ok p ->
  exists price ci,
    px_price f t = Ok price /\ px_scaled_conf f t = Ok ci /\ px_price_of_type f t None omc = Ok price /\
    0 <= ci /\ 0 <= price /\ ci * 4294967295 <= price * max_conf_num omc /\
    p = bias_apply b price (Z.min ci (price * MAX_CONF_INTERVAL / ONE)).
Proof.
  intros Homc Hf H. rewrite pot_nonfixed in H by assumption.
  apply bind_ok in H as (price & Hprice & H). apply bind_ok in H as (d & Hd & H).
  rewrite conf_interval_nonfixed in Hd by assumption.
  apply bind_ok in Hd as (ci & Hci & Hd). rewrite Hprice in Hd. cbn [bind] in Hd.
  apply conf_cap_inv in Hd as (H0 & H1 & H2 & ->); [|assumption].
  exists price, ci. repeat split; try assumption.
  - rewrite pot_nonfixed by assumption. rewrite Hprice. reflexivity.
  - destruct b; apply ok_or_inv in H; [apply csub_inv in H | apply cadd_inv in H]; apply H.
Qed.

(* 5% cap in exact integers: MAX_CONF_INTERVAL = 14073748835533 = (2^48 + 4) / 20 *)
Lemma cap_bounds price :
  0 <= price ->
  let cap := price * MAX_CONF_INTERVAL / ONE in
  0 <= cap /\ 20 * cap * 2^48 <= price * (2^48 + 4) < 20 * (cap + 1) * 2^48.
Proof.
  intros Hp cap. subst cap. rewrite MAXCI_val, ONE_val.
  pose proof (Z.mul_div_le (price * 14073748835533) 281474976710656 ltac:(lia)).
  pose proof (Z.mul_succ_div_gt (price * 14073748835533) 281474976710656 ltac:(lia)).
  split; [apply Z.div_pos; lia | lia].
Qed.

Theorem price_bias f t b omc p :
  0 <= omc ->
  px_price_of_type f t (Some b) omc = Ok p ->
  exists price d,
    px_price_of_type f t None omc = Ok price /\
    p = (match b with PLow => price - d | PHigh => price + d end) /\ 0 <= d /\
    (is_fixed f = true -> d = 0) /\
    (is_fixed f = false ->
       0 <= price /\ 20 * d * 2^48 <= price * (2^48 + 4) /\
       exists ci cap, px_scaled_conf f t = Ok ci /\ 0 <= ci /\ d = Z.min ci cap /\
         20 * cap * 2^48 <= price * (2^48 + 4) < 20 * (cap + 1) * 2^48).
Proof.
  intros Ho H. destruct (is_fixed f) eqn:Hf.
  - destruct f as [| |price]; try discriminate. apply Ok_inj in H as <-.
    exists price, 0. repeat split; try (destruct b; lia); discriminate.
  - apply biased_inv in H as (price & ci & H1 & H2 & H3 & H4 & H5 & H6 & ->); try assumption.
    destruct (cap_bounds price H5) as [Hc0 Hc].
    set (cap := price * MAX_CONF_INTERVAL / ONE) in *.
    exists price, (Z.min ci cap). split; [assumption|]. split; [destruct b; reflexivity|].
    split; [lia|]. split; [discriminate|]. intros _. split; [assumption|]. split; [lia|].
    exists ci, cap. auto.
Qed.

Lemma biased_positive f t b omc p :
  0 <= omc -> px_price_of_type f t (Some b) omc = Ok p -> 0 < p ->
  exists q, px_price_of_type f t None omc = Ok q /\ 0 < q /\ match b with PLow => p <= q | PHigh => q <= p end.
Proof.
  intros Ho H Hp. apply price_bias in H as (q & d & Hq & -> & Hd & Hfix & Hnon); [|assumption].
  exists q. split; [assumption|].
  destruct (is_fixed f); [rewrite Hfix in * by reflexivity | destruct (Hnon eq_refl) as (Hq0 & Hcap & _)];
    destruct b; lia.
Qed.

Lemma exp10_inv n v : px_exp10 n = Ok v -> 0 <= n < 24 /\ v = 10 ^ n * ONE.
Proof.
  unfold px_exp10, px_exp10_opt. change (Z.of_nat (length EXP_10_I80F48)) with 24.
  destruct ((0 <=? n) && (n <? 24)) eqn:E; [|discriminate]. rewrite exp10_table by lia.
  intros H. apply Ok_inj in H as <-. rewrite Z2Nat.id by lia. split; [lia | reflexivity].
Qed.

Lemma try_get_err pf e : pf = Err e -> exists e' c, px_try_get_price_feed pf = (Err e', c).
Proof. intros ->. unfold px_try_get_price_feed. destruct e as [| |c]; eauto. destruct (c <? 0); eauto. Qed.

Lemma try_get_ok pf f c : px_try_get_price_feed pf = (Ok f, c) -> pf = Ok f /\ c = 0.
Proof.
  unfold px_try_get_price_feed. destruct pf as [f0|[| |c0]]; intros H; try (inversion H; auto; fail).
  destruct (c0 <? 0); inversion H.
Qed.

Theorem liab_value_inv req pf omc k v p :
  px_weighted_liab_value req pf omc k = Ok (v, p) ->
  exists f, pf = Ok f /\ px_price_of_type f (px_req_price_type req) (Some PHigh) omc = Ok p /\ k p = Ok v.
Proof.
  unfold px_weighted_liab_value. destruct (px_try_get_price_feed pf) as [rf c] eqn:Hg. intros H.
  apply bind_ok in H as (f & -> & H). apply try_get_ok in Hg as [-> _].
  apply bind_ok in H as (hi & Hhi & H). apply bind_ok in H as (v' & Hv & H). apply Ok_inj in H. inversion H; subst. eauto.
Qed.

