(* ConfigHealthLemmas.v — C13 buffer: under Valid weights, at equal prices, the Initial requirement is
   at least as strict as the Maintenance requirement, position by position and hence for every
   portfolio; reconcile_emode_configs keeps init <= maint. *)
Require Import Base ConfigGen Fixed Config Emode ConfigPaths ConfigHealth.
Require Import FixedLemmas ConfigLemmas.
From Coq Require Import ZifyBool.
Local Open Scope Z_scope.

Definition entry_le (e : emode_entry) : Prop := ee_is_empty e = true \/ ee_init e <= ee_maint e.

(* the invariant of the merge map: every entry in it, empty tag or not, has init <= maint *)
Definition merged_le (m : list (emode_entry * Z)) : Prop := Forall (fun xc => ee_init (fst xc) <= ee_maint (fst xc)) m.

Lemma merge_entry_le m e : merged_le m -> ee_init e <= ee_maint e -> merged_le (merge_entry m e).
Proof.
  unfold merged_le. induction m as [|[x c] r IH]; cbn [merge_entry]; intros Hm He; [repeat constructor; exact He|].
  apply Forall_cons_iff in Hm as [Hx Hr]. cbn [fst] in Hx.
  destruct (ee_tag e =? ee_tag x); [|destruct (ee_tag e <? ee_tag x)]; repeat constructor; auto.
  unfold merge_into. cbn [fst ee_init ee_maint].
  destruct (Z.ltb_spec (ee_init e) (ee_init x)), (Z.ltb_spec (ee_maint e) (ee_maint x)); lia.
Qed.

Lemma merge_cfg_le m cfg : merged_le m -> Forall entry_le cfg -> merged_le (merge_cfg m cfg).
Proof.
  apply fold_left_invariant. clear m. intros m e Hm [He|He]; rewrite ?He; [exact Hm|].
  destruct (ee_is_empty e); [exact Hm | apply merge_entry_le; assumption].
Qed.

Lemma reconcile_keeps_le cfgs r :
  Forall (Forall entry_le) cfgs -> reconcile_emode_configs cfgs = Ok r -> Forall entry_le r.
Proof.
  intros Hc. assert (Hz : forall n, Forall entry_le (repeat ee_zero n)).
  { intros n. apply Forall_forall. intros e ->%repeat_spec. left. reflexivity. }
  unfold reconcile_emode_configs, from_entries. destruct cfgs as [|c0 rest]; [intros <-%Ok_inj; apply Hz|].
  destruct (MAX_EMODE_ENTRIES <? _); [discriminate|]. intros <-%Ok_inj.
  apply Forall_app. split; [|apply Hz]. rewrite ee_sort_perm.
  assert (Hm : merged_le (fold_left merge_cfg (c0 :: rest) [])) by (apply (fold_left_invariant _ _ _ merge_cfg_le); [constructor | exact Hc]).
  apply Forall_map, (incl_Forall (incl_filter _ _)). eapply Forall_impl; [|exact Hm]. intros xc H. right. exact H.
Qed.

Lemma emode_valid_entries_le g c es : emode_valid g c es -> Forall entry_le (es_entries es).
Proof.
  intros [H _]. apply em_validate_sound in H as (capi & capm & _ & _ & Hf & _).
  eapply Forall_impl; [|exact Hf]. intros e [He|He]; [left; exact He | right; lia].
Qed.

(* a zero amount gives the same 0 as the formula *)
Lemma calc_value_w_inv amount price scale w v :
  calc_value_w amount price scale w = Ok v -> v = Z.quot (amount * w / ONE * price / ONE * ONE) scale.
Proof.
  unfold calc_value_w. destruct (Z.eqb_spec amount 0) as [->|_]; [intros <-%Ok_inj; reflexivity|].
  intros H. apply bind_ok in H as (wa & Hwa & H).
  destruct (cmul amount w) as [wa'|] eqn:Hc; [|discriminate]. apply Ok_inj in Hwa as <-. apply cmul_inv in Hc as [-> _].
  apply bind_ok in H as (pv & [-> _]%ok_or_inv%cmul_inv & H).
  apply ok_or_inv in H. unfold cdiv in H. destruct (scale =? 0); [discriminate|].
  apply chko_inv in H as [-> _]. reflexivity.
Qed.

Lemma calc_value_w_mono amount price scale w1 w2 v1 v2 :
  0 <= amount -> 0 <= price -> 0 < scale -> w1 <= w2 ->
  calc_value_w amount price scale w1 = Ok v1 -> calc_value_w amount price scale w2 = Ok v2 -> v1 <= v2.
Proof.
  intros Ha Hp Hs Hw ->%calc_value_w_inv ->%calc_value_w_inv. pose proof ONE_pos as HO.
  apply Z.quot_le_mono; [lia|]. apply Z.mul_le_mono_nonneg_r; [lia|].
  apply Z.div_le_mono; [lia|]. apply Z.mul_le_mono_nonneg_r; [lia|].
  apply Z.div_le_mono; [lia|]. apply Z.mul_le_mono_nonneg_l; lia.
Qed.

Lemma calc_value_w_nonneg amount price scale w v :
  0 <= amount -> 0 <= price -> 0 < scale -> 0 <= w -> calc_value_w amount price scale w = Ok v -> 0 <= v.
Proof.
  intros Ha Hp Hs Hw ->%calc_value_w_inv. pose proof ONE_pos as HO.
  apply Z.quot_pos; [|lia]. apply Z.mul_nonneg_nonneg; [|lia].
  apply Z.div_pos; [|lia]. apply Z.mul_nonneg_nonneg; [|lia].
  apply Z.div_pos; [|lia]. apply Z.mul_nonneg_nonneg; lia.
Qed.

Definition pos_ok (p : position) : Prop :=
  0 <= p_amount p /\ 0 <= p_price p /\ 0 < p_scale p /\
  cfg_valid (cb_cfg (p_bank p)) /\
  match p_discount p with Some d => 0 <= d <= ONE | None => True end.

Lemma asset_weight_le b recon :
  cfg_valid (cb_cfg b) -> Forall entry_le recon ->
  0 <= asset_weight CRInitial b recon <= asset_weight CRMaint b recon.
Proof.
  intros [(A & B & _) _]%bc_validate_spec Hr.
  unfold asset_weight, find_with_tag, fmax. cbn [bank_asset_weight entry_weight].
  destruct (Z.eqb_spec (es_tag (cb_emode b)) EMODE_TAG_EMPTY) as [|Hne]; [lia|].
  destruct (find _ recon) as [e|] eqn:F; [|lia].
  (* the entry found carries the bank's non-empty tag, so entry_le gives init <= maint *)
  apply find_some in F as [Hin Htag]. rewrite Forall_forall in Hr. destruct (Hr e Hin) as [He|He]; [|lia].
  unfold ee_is_empty in He. lia.
Qed.

Lemma asset_value_le recon p vi vm :
  pos_ok p -> Forall entry_le recon ->
  weighted_asset_value CRInitial recon p = Ok vi -> weighted_asset_value CRMaint recon p = Ok vm ->
  vi <= vm.
Proof.
  intros (Ha & Hp & Hs & Hc & Hd) Hr. pose proof (asset_weight_le _ _ Hc Hr) as Hw.
  unfold weighted_asset_value. destruct (bc_risk_tier (cb_cfg (p_bank p)) =? RISK_COLLATERAL).
  2:{ intros <-%Ok_inj <-%Ok_inj. lia. }
  rewrite andb_false_r, andb_true_r. cbn [bind].
  destruct (bc_op_state (cb_cfg (p_bank p)) =? OP_REDUCE_ONLY).
  - intros <-%Ok_inj H2. eapply calc_value_w_nonneg; [exact Ha | exact Hp | exact Hs | | exact H2]. lia.
  - intros H1 H2. apply bind_ok in H1 as (w' & Hw' & H1).
    eapply calc_value_w_mono; [exact Ha | exact Hp | exact Hs | | exact H1 | exact H2].
    (* the discount is a factor in [0,1] *)
    destruct (p_discount p) as [d|]; [|apply Ok_inj in Hw'; lia].
    apply ok_or_inv, cmul_inv in Hw' as [-> _]. pose proof (mul_div_le _ d ONE ONE_pos (proj1 Hw) Hd). lia.
Qed.

Lemma liab_value_le p vi vm :
  pos_ok p -> weighted_liab_value CRInitial p = Ok vi -> weighted_liab_value CRMaint p = Ok vm -> vm <= vi.
Proof.
  intros (Ha & Hp & Hs & [(_ & _ & C & _) _]%bc_validate_spec & _).
  unfold weighted_liab_value. cbn [bank_liab_weight]. intros H1 H2.
  eapply calc_value_w_mono; [exact Ha | exact Hp | exact Hs | | exact H2 | exact H1]. lia.
Qed.

Lemma health_components_cons rt recon p rest acc r :
  health_components rt recon (p :: rest) acc = Ok r ->
  exists av lv,
    (if p_is_liab p then Ok 0 else weighted_asset_value rt recon p) = Ok av /\
    (if p_is_liab p then weighted_liab_value rt p else Ok 0) = Ok lv /\
    health_components rt recon rest (fst acc + av, snd acc + lv) = Ok r.
Proof.
  cbn [health_components]. intros H.
  apply bind_ok in H as (av & Hav & H). apply bind_ok in H as (lv & Hlv & H).
  apply bind_ok in H as (a' & [-> _]%ok_or_inv%cadd_inv & H).
  apply bind_ok in H as (l' & [-> _]%ok_or_inv%cadd_inv & H). eauto.
Qed.

Lemma health_components_le recon l : forall a0 l0 a0' l0' ai li am lm,
  Forall pos_ok l -> Forall entry_le recon -> a0 <= a0' -> l0' <= l0 ->
  health_components CRInitial recon l (a0, l0) = Ok (ai, li) ->
  health_components CRMaint recon l (a0', l0') = Ok (am, lm) ->
  ai <= am /\ lm <= li.
Proof.
  induction l as [|p rest IH]; intros a0 l0 a0' l0' ai li am lm Hl Hr Ha Hlb H1 H2.
  - apply Ok_inj in H1, H2. injection H1 as <- <-. injection H2 as <- <-. lia.
  - apply Forall_cons_iff in Hl as [Hp Hrest].
    apply health_components_cons in H1 as (av1 & lv1 & Hav1 & Hlv1 & H1).
    apply health_components_cons in H2 as (av2 & lv2 & Hav2 & Hlv2 & H2).
    cbn [fst snd] in H1, H2.
    assert (av1 <= av2 /\ lv2 <= lv1) as [Hav Hlv].
    { destruct (p_is_liab p).
      - apply Ok_inj in Hav1, Hav2. split; [lia | eapply liab_value_le; eassumption].
      - apply Ok_inj in Hlv1, Hlv2. split; [eapply asset_value_le; eassumption | lia]. }
    eapply (IH (a0 + av1) (l0 + lv1) (a0' + av2) (l0' + lv2)); try eassumption; lia.
Qed.

Lemma buffer recon l ai li am lm :
  Forall pos_ok l -> Forall entry_le recon ->
  health_components CRInitial recon l (0, 0) = Ok (ai, li) ->
  health_components CRMaint recon l (0, 0) = Ok (am, lm) ->
  ai <= am /\ lm <= li /\ (li <= ai -> lm <= am).
Proof.
  intros Hl Hr H1 H2.
  destruct (health_components_le recon l 0 0 0 0 ai li am lm Hl Hr (Z.le_refl 0) (Z.le_refl 0) H1 H2). lia.
Qed.

(* with e-mode: the bank of the position carries valid e-mode settings, for whatever caps were in force when they
   were written *)
Definition pos_emode_ok (p : position) : Prop :=
  exists g, emode_valid g (cb_cfg (p_bank p)) (cb_emode (p_bank p)).

Lemma account_recon_le l recon :
  Forall pos_emode_ok l ->
  reconcile_emode_configs (map (fun p => es_entries (cb_emode (p_bank p))) (filter p_is_liab l)) = Ok recon ->
  Forall entry_le recon.
Proof.
  intros He. apply reconcile_keeps_le. apply Forall_map, (incl_Forall (incl_filter _ _)).
  eapply Forall_impl; [|exact He]. intros p [g Hg]. eapply emode_valid_entries_le; exact Hg.
Qed.

