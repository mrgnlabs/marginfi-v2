(* TransferFeeLemmas.v — the pre-fee amount computed for a Token-2022 transfer-fee mint always
   covers the requested post-fee amount: pre - fee(pre) >= post. *)
Require Import Base TransferFee FixedLemmas.
From Coq Require Import ZifyBool.
Local Open Scope Z_scope.

Lemma ceil_div_inv n d r : 0 <= n -> 0 < d -> ceil_div n d = Ok r -> r = (n + d - 1) / d.
Proof.
  unfold ceil_div. intros Hn Hd H.
  apply bind_ok in H as (a & Ha & H). apply chko_inv in Ha as [-> _].
  apply bind_ok in H as (b & Hb & H). apply chko_inv in Hb as [-> _].
  replace (d =? 0) with false in H by lia. apply Ok_inj in H. auto.
Qed.

Lemma ceil_mul_ge n d : 0 <= n -> 0 < d -> n <= (n + d - 1) / d * d.
Proof.
  intros Hn Hd. pose proof (Z.div_mod (n + d - 1) d ltac:(lia)). pose proof (Z.mod_pos_bound (n + d - 1) d Hd). nia.
Qed.

(* the gross-up either leaves the amount alone (no fee), adds the maximum fee, or scales by 10000 / (10000 - bps), rounding up *)
Lemma pre_fee_spec bps maxfee post pre :
  0 <= bps <= 10000 -> 0 <= post -> calculate_pre_fee_amount bps maxfee post = Ok pre ->
  (bps = 0 \/ post = 0) /\ pre = post \/
  0 < bps /\ 0 < post /\ (pre = post + maxfee \/ post * 10000 <= pre * (10000 - bps)).
Proof.
  unfold calculate_pre_fee_amount, BPS_ONE. intros Hb Hp H.
  destruct (bps =? 0) eqn:E0. { apply Ok_inj in H. left. lia. }
  destruct (post =? 0) eqn:Ep. { apply Ok_inj in H. left. lia. }
  right. split; [lia|]. split; [lia|].
  destruct (bps =? 10000) eqn:E1. { apply chko_inv in H as [-> _]. left. lia. }
  apply bind_ok in H as (num & Hn & H). apply chko_inv in Hn as [-> _].
  apply bind_ok in H as (den & Hd & H). apply chko_inv in Hd as [-> _].
  apply bind_ok in H as (raw & Hr & H). apply ceil_div_inv in Hr as ->; try lia.
  apply bind_ok in H as (diff & Hdf & H). apply chko_inv in Hdf as [-> _].
  destruct (maxfee <=? _); apply chko_inv in H as [-> _]; [left; reflexivity | right; apply ceil_mul_ge; lia].
Qed.

(* the fee is the rounded-up share of the amount, capped *)
Lemma calculate_fee_spec bps maxfee pre fee :
  0 <= bps -> 0 <= pre -> 0 <= maxfee -> calculate_fee bps maxfee pre = Ok fee ->
  0 <= fee <= maxfee /\ fee * 10000 < pre * bps + 10000.
Proof.
  unfold calculate_fee, BPS_ONE. intros Hb Hp Hm H.
  destruct ((bps =? 0) || (pre =? 0)). { apply Ok_inj in H. nia. }
  apply bind_ok in H as (num & Hn & H). apply chko_inv in Hn as [-> _].
  apply bind_ok in H as (raw & Hr & H). apply ceil_div_inv in Hr as ->; try nia.
  apply bind_ok in H as (raw64 & H64 & H). apply chko_inv in H64 as [-> _]. apply Ok_inj in H.
  pose proof (Z.mul_div_le (pre * bps + 10000 - 1) 10000 ltac:(lia)).
  assert (0 <= (pre * bps + 10000 - 1) / 10000) by (apply Z.div_pos; nia). lia.
Qed.

Lemma prefee_covers bps maxfee post pre fee :
  0 <= bps <= BPS_ONE -> 0 <= maxfee -> 0 <= post -> 0 <= pre ->
  calculate_pre_fee_amount bps maxfee post = Ok pre -> calculate_fee bps maxfee pre = Ok fee ->
  post <= pre - fee /\ 0 <= fee.
Proof.
  unfold BPS_ONE. intros Hb Hm Hp Hpre0 Hpre Hfee.
  apply calculate_fee_spec in Hfee as [Hf Hceil]; [| lia..].
  apply pre_fee_spec in Hpre as [[H0 ->] | (Hb0 & Hp0 & [-> | Hs])]; [| | | lia..].
  - assert (post * bps = 0) by (destruct H0; subst; ring). lia.
  - lia.
  - lia.
Qed.

Lemma prefee_ge bps maxfee post pre :
  0 <= bps <= 10000 -> 0 <= maxfee -> 0 <= post -> calculate_pre_fee_amount bps maxfee post = Ok pre -> post <= pre.
Proof. intros Hb Hm Hp H. apply pre_fee_spec in H as [[_ ->] | (Hb0 & Hp0 & [-> | Hs])]; [| | | lia..]; nia. Qed.

Lemma prefee_wrapper bps maxfee post pre :
  pre_fee_deposit_amount bps maxfee post = Ok pre -> calculate_pre_fee_amount bps maxfee post = Ok pre.
Proof. unfold pre_fee_deposit_amount. destruct (calculate_pre_fee_amount bps maxfee post); intros H; [assumption | discriminate]. Qed.

(* with a pending fee change: the schedule used for the gross-up is the one charged in that epoch *)
Lemma prefee_covers_every_epoch :
  forall s epoch post pre fee,
  0 <= fs_old_bps s <= 10000 -> 0 <= fs_new_bps s <= 10000 -> 0 <= fs_old_max s -> 0 <= fs_new_max s ->
  0 <= post -> 0 <= pre ->
  pre_fee_deposit_amount_at s epoch post = Ok pre -> calculate_epoch_fee s epoch pre = Ok fee ->
  post <= pre - fee /\ 0 <= fee.
Proof.
  intros s epoch post pre fee Ho Hn Hom Hnm Hp Hpre H1 H2. apply prefee_wrapper in H1.
  unfold calculate_epoch_fee, get_epoch_fee in *.
  destruct (fs_new_epoch s <=? epoch); cbn [fst snd] in *.
  - exact (prefee_covers _ _ _ _ _ Hn Hnm Hp Hpre H1 H2).
  - exact (prefee_covers _ _ _ _ _ Ho Hom Hp Hpre H1 H2).
Qed.

(* the emissions vault receives at least what the bank records as funded, and never more than was sent *)
Lemma fund_emissions_covers has_fee s epoch balance amount sent recv :
  0 <= fs_old_bps s <= 10000 -> 0 <= fs_new_bps s <= 10000 -> 0 <= fs_old_max s -> 0 <= fs_new_max s ->
  0 <= amount ->
  fund_emissions has_fee s epoch balance amount = Ok (sent, recv) ->
  amount <= recv /\ recv <= sent /\ sent <= balance.
Proof.
  intros Ho Hn Hom Hnm Ha H. unfold fund_emissions in H.
  apply bind_ok in H as (pre & Hpre & H).
  destruct (balance <? pre) eqn:Eb; [discriminate|].
  apply bind_ok in H as (fee & Hfee & H). apply Ok_inj in H. injection H as <- <-.
  destruct has_fee.
  - destruct (calculate_epoch_fee s epoch pre) as [f|e] eqn:Ef; [|discriminate]. apply Ok_inj in Hfee as ->.
    assert (0 <= pre).
    { pose proof Hpre as Hge. apply prefee_wrapper in Hge. unfold get_epoch_fee in Hge.
      destruct (fs_new_epoch s <=? epoch); apply prefee_ge in Hge; cbn [fst snd]; lia. }
    destruct (prefee_covers_every_epoch s epoch amount pre fee); try assumption. lia.
  - apply Ok_inj in Hpre. apply Ok_inj in Hfee. lia.
Qed.
