(* NumLemmas.v — what the oracle proofs (PriceLemmas, XrateLemmas) and the configuration and risk-valuation proofs
   share: integer ranges, the u64 -> i64 cast, floor division, the power-of-ten table. *)
Require Import Base Constants Fixed FixedLemmas.
From Coq Require Import ZifyBool.
Local Open Scope Z_scope.

Lemma U128_MAX_val : U128_MAX = 340282366920938463463374607431768211455. Proof. reflexivity. Qed.
Lemma I64_MAX_val : I64_MAX = 9223372036854775807. Proof. reflexivity. Qed.
Lemma I64_MIN_val : I64_MIN = -9223372036854775808. Proof. reflexivity. Qed.

(* in_u8 .. in_i128 are all instances *)
Lemma in_range_iff lo hi z : in_range lo hi z = true <-> lo <= z <= hi.
Proof. unfold in_range. lia. Qed.

Lemma in_range_incl lo hi lo' hi' z :
  lo <= lo' -> hi' <= hi -> in_range lo' hi' z = true -> in_range lo hi z = true.
Proof. rewrite !in_range_iff. lia. Qed.

(* `x as i64` for x : u64 *)
Lemma wrap_s64 x : 0 <= x <= U64_MAX -> wrap_s 64 x = if x <? 2^63 then x else x - 2^64.
Proof.
  rewrite U64_MAX_val. intros H. unfold wrap_s. change (64 - 1) with 63.
  destruct (x <? 2^63) eqn:E.
  - rewrite Z.mod_small by lia. lia.
  - replace (x + 2^63) with ((x - 2^63) + 1 * 2^64) by lia.
    rewrite Z.mod_add by lia. rewrite Z.mod_small by lia. lia.
Qed.

Lemma div_mul_floor a b : 0 < b -> a / b * b <= a.
Proof. intros Hb. rewrite Z.mul_comm. apply Z.mul_div_le; assumption. Qed.

Lemma div_mul_floor_lt a b : 0 < b -> a < (a / b + 1) * b.
Proof. intros Hb. rewrite Z.mul_comm. apply Z.mul_succ_div_gt; assumption. Qed.

Lemma nested_floor a b : 0 < b -> a * ONE / b / ONE = a / b.
Proof.
  intros Hb. pose proof ONE_pos.
  rewrite Z.div_div by lia. apply Z.div_mul_cancel_r; lia.
Qed.

Lemma pow10_pos d : 0 <= d -> 0 < 10 ^ d.
Proof. intros; apply Z.pow_pos_nonneg; lia. Qed.

Lemma exp10_table k : (k < 24)%nat -> nth_error EXP_10_I80F48 k = Some (10 ^ Z.of_nat k * ONE).
Proof. intros H. do 24 (destruct k as [|k]; [reflexivity|]). lia. Qed.

Lemma exp10_table_none k : (24 <= k)%nat -> nth_error EXP_10_I80F48 k = None.
Proof. intros H. apply nth_error_None. change (length EXP_10_I80F48) with 24%nat. lia. Qed.
