(* AnchorSemLemmas.v — what acceptance by the account-validation phase (AnchorSem.accepts) implies, field by
   field and constraint by constraint; the signer rule; soundness of the per-class checkers of Spec.v.
   All statements are for every world, binding, signer set, every `pda` function and every interpretation of
   the uninterpreted constraints. *)
Require Import Base AnchorTypes AnchorSem Spec.
Local Open Scope string_scope.
Local Open Scope Z_scope.

Lemma seqb_eq a b : seqb a b = true <-> a = b.
Proof. apply String.eqb_eq. Qed.

Lemma seqb_refl a : seqb a a = true.
Proof. apply seqb_eq. reflexivity. Qed.

Lemma opt_key_eqb_true a b : opt_key_eqb a b = true -> exists k, a = Some k /\ b = Some k.
Proof.
  destruct a as [x|], b as [y|]; cbn; try discriminate.
  intros H. apply Z.eqb_eq in H. subst y. eauto.
Qed.

Lemma zmem_In k l : zmem k l = true <-> In k l.
Proof.
  induction l as [|x l IH]; cbn; [split; [discriminate|tauto]|].
  rewrite Bool.orb_true_iff, IH, Z.eqb_eq. split; intros [H|H]; auto.
Qed.

Lemma smem_In k l : smem k l = true <-> In k l.
Proof.
  induction l as [|x l IH]; cbn; [split; [discriminate|tauto]|].
  rewrite Bool.orb_true_iff, IH, seqb_eq. split; intros [H|H]; auto.
Qed.

Lemma find_field_some name l f : find_field name l = Some f -> In f l /\ f_name f = name.
Proof.
  induction l as [|x l IH]; cbn; [discriminate|].
  destruct (seqb name (f_name x)) eqn:E.
  - intros [= <-]. apply seqb_eq in E. auto.
  - intros H. destruct (IH H). auto.
Qed.

Lemma find_entry_some name t e : find_entry name t = Some e -> In e t /\ e_ix e = name.
Proof.
  induction t as [|x l IH]; cbn; [discriminate|].
  destruct (seqb name (e_ix x)) eqn:E.
  - intros [= <-]. apply seqb_eq in E. auto.
  - intros H. destruct (IH H). auto.
Qed.

Lemma find_entry_all t l :
  forallb (fun n => match find_entry n t with Some _ => true | None => false end) l = true ->
  forall n, In n l -> exists e, In e t /\ e_ix e = n.
Proof.
  intros A n H. pose proof (proj1 (forallb_forall _ _) A n H) as F. cbv beta in F.
  destruct (find_entry n t) as [e|] eqn:E; [|discriminate]. exists e. exact (find_entry_some _ _ _ E).
Qed.

Lemma forallb_fields (P : entry -> field -> bool) t :
  forallb (fun e => forallb (P e) (e_fields e)) t = true ->
  forall e f, In e t -> In f (e_fields e) -> P e f = true.
Proof. intros A e f He. apply forallb_forall. exact (proj1 (forallb_forall _ _) A e He). Qed.

Lemma sassoc_In {A} k (l : list (string * A)) v : sassoc k l = Some v -> In (k, v) l.
Proof.
  induction l as [|[k' v'] l IH]; cbn; [discriminate|].
  destruct (seqb k k') eqn:E; [|auto].
  intros [= <-]. apply seqb_eq in E. subst. auto.
Qed.

Lemma plain_spec f : plain f = true -> f_opt f = false /\ f_init f = false.
Proof. unfold plain. rewrite Bool.andb_true_iff, !Bool.negb_true_iff. tauto. Qed.

Lemma with_field_some e name P :
  with_field e name P = true -> exists f, In f (e_fields e) /\ f_name f = name /\ P f = true.
Proof.
  unfold with_field. destruct (find_field name (e_fields e)) as [f|] eqn:E; [|discriminate].
  intros H. destruct (find_field_some _ _ _ E). eauto.
Qed.

Lemma has_one_of_In f t : has_one_of f t = true -> exists err, In (t, err) (f_has_one f).
Proof.
  intros H. apply existsb_exists in H. destruct H as [[t' err] [Hin Heq]].
  apply seqb_eq in Heq. cbn in Heq. subst. eauto.
Qed.

Lemma has_cons_In P f : has_cons P f = true -> exists c err, In (c, err) (f_cons f) /\ P c = true.
Proof. intros H. apply existsb_exists in H. destruct H as [[c err] [Hin Hp]]. eauto. Qed.

Lemma wrap_is_loader_eq ty f : wrap_is_loader ty f = true -> f_wrap f = WLoader ty.
Proof.
  unfold wrap_is_loader. destruct (f_wrap f); try discriminate. intros H. apply seqb_eq in H. subst. reflexivity.
Qed.

Lemma wrap_is_signer_eq f : wrap_is_signer f = true -> f_wrap f = WSigner.
Proof. unfold wrap_is_signer. destruct (f_wrap f); try discriminate. reflexivity. Qed.

Lemma seeds_are_eq f sl : seeds_are f sl = true -> f_seeds f = Some (sl, None).
Proof.
  unfold seeds_are. destruct (f_seeds f) as [[sl' [p|]]|]; try discriminate.
  intros H. do 2 f_equal. revert sl H. induction sl' as [|x l IH]; intros sl H.
  - destruct sl; [reflexivity|discriminate].
  - destruct x; try discriminate; destruct sl as [|y m]; try discriminate; destruct y; try discriminate;
      apply Bool.andb_true_iff in H as [H1 H2]; apply seqb_eq in H1; subst; f_equal; exact (IH m H2).
Qed.

Lemma m_signer_auth_eq acct grp signer allow c :
  m_signer_auth acct grp signer allow c = true -> c = CSignerAuthorized acct grp signer allow.
Proof.
  destruct c; try discriminate. cbn. rewrite !Bool.andb_true_iff, !seqb_eq. intros [[[-> ->] ->] H].
  apply Bool.eqb_prop in H. subst. reflexivity.
Qed.

Lemma m_not_frozen_eq acct signer c : m_not_frozen acct signer c = true -> c = CNotFrozenForAuthority acct signer.
Proof. destruct c; try discriminate. cbn. rewrite Bool.andb_true_iff, !seqb_eq. intros [-> ->]. reflexivity. Qed.

Lemma m_not_paused_eq g c : m_not_paused g c = true -> c = CNotPaused g.
Proof. destruct c; try discriminate. cbn. rewrite seqb_eq. intros ->. reflexivity. Qed.

Lemma m_key_eq_data_field_eq f fld target c :
  m_key_eq_data_field f fld target c = true -> c = CKeyEq (KData f fld) (KField target).
Proof.
  destruct c as [| | | | | | | | |[]| | |]; try discriminate. destruct b; try discriminate.
  cbn. rewrite !Bool.andb_true_iff, !seqb_eq. intros [[-> ->] ->]. reflexivity.
Qed.

Definition typed (w : world) (k : key) (ty : string) : Prop :=
  Some (a_owner (acct_of w k)) = type_owner ty /\ a_disc (acct_of w k) = ty.

Definition user_rule (w : world) (b : binding) (sg : list key) (allow : bool) (acct signer grp : string) : Prop :=
  exists ka ks kg au ad,
    bkey b acct = Some ka /\ bkey b signer = Some ks /\ bkey b grp = Some kg /\
    In ks sg /\ typed w ka "MarginfiAccount" /\ typed w kg "MarginfiGroup" /\
    key_field (acct_of w ka) grp = Some kg /\      (* has_one = grp: the account's data field of that name *)
    key_field (acct_of w ka) "authority" = Some au /\ key_field (acct_of w kg) "admin" = Some ad /\
    is_signer_authorized (num_field (acct_of w ka) "account_flags") au ad ks allow = true /\
    account_not_frozen_for_authority (num_field (acct_of w ka) "account_flags") au ks = true.

Definition owner_rule (w : world) (b : binding) (sg : list key) (acct signer : string) : Prop :=
  exists ka ks, bkey b acct = Some ka /\ bkey b signer = Some ks /\ In ks sg /\
                typed w ka "MarginfiAccount" /\ key_field (acct_of w ka) "authority" = Some ks.

Definition admin_rule (w : world) (b : binding) (sg : list key) (r : role) (signer grp : string) : Prop :=
  exists ks kg, bkey b signer = Some ks /\ bkey b grp = Some kg /\ In ks sg /\
                typed w kg "MarginfiGroup" /\ key_field (acct_of w kg) (role_field r) = Some ks.

(* KAdmin with several roles: which of them the signer holds is checked in the handler body *)
Definition admin_body_rule (w : world) (b : binding) (sg : list key) (signer grp : string) : Prop :=
  exists ks kg, bkey b signer = Some ks /\ bkey b grp = Some kg /\ In ks sg /\ typed w kg "MarginfiGroup".

(* KBankruptcy: bank and account belong to the group; the signer's role is checked in the handler body *)
Definition bankruptcy_rule (w : world) (b : binding) (sg : list key) (signer grp bank acct : string) : Prop :=
  exists ks kg kb ka, bkey b signer = Some ks /\ bkey b grp = Some kg /\ bkey b bank = Some kb /\
    bkey b acct = Some ka /\ In ks sg /\
    typed w kg "MarginfiGroup" /\ typed w kb "Bank" /\ typed w ka "MarginfiAccount" /\
    key_field (acct_of w kb) grp = Some kg /\ key_field (acct_of w ka) grp = Some kg.

(* KEndLiquidation: only the receiver recorded on the account's own liquidation record *)
Definition end_liq_rule (w : world) (b : binding) (sg : list key) (acct record receiver : string) : Prop :=
  exists ka kr ks, bkey b acct = Some ka /\ bkey b record = Some kr /\ bkey b receiver = Some ks /\ In ks sg /\
    typed w ka "MarginfiAccount" /\ typed w kr "LiquidationRecord" /\
    key_field (acct_of w ka) record = Some kr /\ key_field (acct_of w kr) receiver = Some ks.

Definition fee_admin_rule (pda : key -> list seed_val -> key) (w : world) (b : binding) (sg : list key)
                          (signer : string) : Prop :=
  exists ks kf, bkey b signer = Some ks /\ bkey b "fee_state" = Some kf /\ In ks sg /\
                kf = pda PROG_MARGINFI [VStr "feestate"] /\
                typed w kf "FeeState" /\ key_field (acct_of w kf) "global_fee_admin" = Some ks.

(* the permissionless classes promise nothing about the signer *)
Definition class_rule (pda : key -> list seed_val -> key) (w : world) (b : binding) (sg : list key)
                      (c : ix_class) : Prop :=
  match c with
  | KUser allow acct signer grp => user_rule w b sg allow acct signer grp
  | KOwner acct signer => owner_rule w b sg acct signer
  | KAdmin [r] signer grp => admin_rule w b sg r signer grp
  | KAdmin _ signer grp => admin_body_rule w b sg signer grp
  | KFeeAdmin signer => fee_admin_rule pda w b sg signer
  | KBankruptcy signer grp bank acct => bankruptcy_rule w b sg signer grp bank acct
  | KEndLiquidation acct record receiver => end_liq_rule w b sg acct record receiver
  | KStartLiquidation _ _ | KCrank | KInit => True
  end.

(* which account a key belongs to: the key bound to field `name` is stored under that name in an account of type
   ty that the instruction takes (has_one = name), or is the PDA of [lit; that account's key] *)
Definition belongs_to (pda : key -> list seed_val -> key) (e : entry) (w : world) (b : binding)
                      (name ty lit : string) : Prop :=
  exists k a ka, bkey b name = Some k /\ In a (e_fields e) /\ wrap_is_loader ty a = true /\
    bkey b (f_name a) = Some ka /\
    (key_field (acct_of w ka) name = Some k \/ k = pda PROG_MARGINFI [VStr lit; VKey ka]).

Lemma bound_acct_eq w b name k : bkey b name = Some k -> bound_acct w b name = acct_of w k.
Proof. unfold bound_acct. intros ->. reflexivity. Qed.

Section Acc.
Context {pda : key -> list seed_val -> key} {opq : string -> world -> binding -> bool}.
Context {e : entry} {w : world} {b : binding} {sg : list key}.
Context (Ha : accepts pda opq e w b sg = true).

Lemma phase_ok f c :
  In f (e_fields e) ->
  In c (phase1_field w b sg f) \/ In c (phase2_field pda w b sg f) \/ In c (phase3_field pda opq w b f) ->
  vcheck_ok c = true.
Proof.
  intros Hf Hc. apply (proj1 (forallb_forall _ _) Ha). unfold checks. rewrite !in_app_iff, !in_flat_map.
  destruct Hc as [H|[H|H]]; eauto 6.
Qed.

Lemma accepts_bound f : In f (e_fields e) -> exists k, bkey b (f_name f) = Some k.
Proof.
  intros Hf. destruct (bkey b (f_name f)) as [k|] eqn:E; [eauto|].
  discriminate (phase_ok f (f_name f, A_AccountNotEnoughKeys, false) Hf).
  left. unfold phase1_field. rewrite E. destruct (f_init f); left; reflexivity.
Qed.

(* seeds of a non-init field (phase 3) and of an init field (phase 2) *)
Lemma accepts_seeds f k sl vs :
  In f (e_fields e) -> f_opt f = false -> bkey b (f_name f) = Some k ->
  seeds_are f sl = true -> eval_seeds w b sl = Some vs -> k = pda PROG_MARGINFI vs.
Proof.
  intros Hf Ho Hk Hs Hvs. apply seeds_are_eq in Hs. apply Z.eqb_eq.
  set (cb := (A_ConstraintSeeds, k =? pda PROG_MARGINFI vs)).
  assert (Hsc : In cb (seeds_check pda w b f k)).
  { unfold seeds_check. rewrite Hs, Hvs. left. reflexivity. }
  apply (phase_ok f (f_name f, fst cb, snd cb) Hf). right.
  unfold phase2_field, phase3_field, absent. rewrite Hk, Ho. cbn [andb].
  destruct (f_init f); [left|right; apply in_or_app; left];
    apply (in_map (fun cb => (f_name f, fst cb, snd cb))), in_or_app; left; exact Hsc.
Qed.

Section Plain.
Context (f : field) (k : key).
Context (Hf : In f (e_fields e)) (Hp : plain f = true) (Hk : bkey b (f_name f) = Some k).

Lemma accepts_deser cb : In cb (deser_checks w sg f k) -> snd cb = true.
Proof.
  intros H. destruct (plain_spec f Hp) as [Ho Hi].
  apply (phase_ok f (f_name f, fst cb, snd cb) Hf). left.
  unfold phase1_field, absent. rewrite Hi, Hk, Ho. exact (in_map _ _ _ H).
Qed.

Lemma accepts_loader ty : f_wrap f = WLoader ty -> typed w k ty.
Proof.
  intros Hw. pose proof accepts_deser as H. unfold deser_checks in H. rewrite Hw in H. split.
  - destruct (opt_key_eqb_true _ _ (H (_, _) (or_introl eq_refl))) as [x [-> ->]]. reflexivity.
  - apply seqb_eq. exact (H (_, _) (or_intror (or_intror (or_introl eq_refl)))).
Qed.

Lemma accepts_signer : f_wrap f = WSigner -> In k sg.
Proof.
  intros Hw. pose proof accepts_deser as H. unfold deser_checks in H. rewrite Hw in H.
  apply zmem_In. exact (H (_, _) (or_introl eq_refl)).
Qed.

Lemma accepts_group cb :
  In cb (map (fun h => (code_or (snd h) A_ConstraintHasOne,
                        opt_key_eqb (key_field (acct_of w k) (fst h)) (bkey b (fst h)))) (f_has_one f)) \/
  In cb (map (fun c => (code_or (snd c) A_ConstraintRaw, eval_cons opq w b (fst c))) (f_cons f)) ->
  snd cb = true.
Proof.
  intros H. destruct (plain_spec f Hp) as [Ho Hi].
  apply (phase_ok f (f_name f, fst cb, snd cb) Hf). right. right.
  unfold phase3_field, absent. rewrite Hi, Hk, Ho. cbn [andb].
  apply in_or_app. left. apply (in_map (fun cb => (f_name f, fst cb, snd cb))).
  do 3 (apply in_or_app; right). apply in_or_app.
  destruct H as [H|H]; [left; exact H|right; apply in_or_app; left; exact H].
Qed.

Lemma accepts_has_one t kt : has_one_of f t = true -> bkey b t = Some kt -> key_field (acct_of w k) t = Some kt.
Proof.
  intros H Ht. destruct (has_one_of_In f t H) as [err Hin].
  pose proof (accepts_group (_, _) (or_introl (in_map _ _ (t, err) Hin))) as E. cbn [fst snd] in E.
  rewrite Ht in E. destruct (opt_key_eqb_true _ _ E) as [x [-> [= ->]]]. reflexivity.
Qed.

Lemma accepts_cons c err : In (c, err) (f_cons f) -> eval_cons opq w b c = true.
Proof. intros H. exact (accepts_group (_, _) (or_intror (in_map _ _ (c, err) H))). Qed.

End Plain.

Lemma signer_field_sound signer : check_signer_field e signer = true -> exists ks, bkey b signer = Some ks /\ In ks sg.
Proof.
  intros H. destruct (with_field_some _ _ _ H) as [f [Hf [<- Q]]].
  apply Bool.andb_true_iff in Q as [Hw Hp]. destruct (accepts_bound f Hf) as [ks Hk].
  exists ks. split; [exact Hk|]. exact (accepts_signer f ks Hf Hp Hk (wrap_is_signer_eq f Hw)).
Qed.

Lemma loader_sound f ty :
  In f (e_fields e) -> wrap_is_loader ty f = true -> plain f = true ->
  exists k, bkey b (f_name f) = Some k /\ typed w k ty.
Proof.
  intros Hf Hw Hp. destruct (accepts_bound f Hf) as [k Hk].
  exists k. split; [exact Hk|]. exact (accepts_loader f k Hf Hp Hk ty (wrap_is_loader_eq ty f Hw)).
Qed.

Lemma loader_field name ty :
  with_field e name (fun f => wrap_is_loader ty f && plain f) = true ->
  exists k, bkey b name = Some k /\ typed w k ty.
Proof.
  intros H. destruct (with_field_some _ _ _ H) as [f [Hf [<- Q]]].
  apply Bool.andb_true_iff in Q as [Hw Hp]. exact (loader_sound f ty Hf Hw Hp).
Qed.

Lemma tied_field name ty t kt :
  with_field e name (fun f => wrap_is_loader ty f && plain f && has_one_of f t) = true -> bkey b t = Some kt ->
  exists k, bkey b name = Some k /\ typed w k ty /\ key_field (acct_of w k) t = Some kt.
Proof.
  intros H Ht. destruct (with_field_some _ _ _ H) as [f [Hf [<- Q]]].
  apply Bool.andb_true_iff in Q as [Q Hho]. apply Bool.andb_true_iff in Q as [Hw Hp].
  destruct (loader_sound f ty Hf Hw Hp) as [k [Hk T]].
  exists k. repeat simple apply conj; trivial. exact (accepts_has_one f k Hf Hp Hk t kt Hho Ht).
Qed.

Lemma check_user_sound allow acct signer grp :
  check_user e allow acct signer grp = true -> user_rule w b sg allow acct signer grp.
Proof.
  intros H. apply Bool.andb_true_iff in H as [H Hacct]. apply Bool.andb_true_iff in H as [Hs Hg].
  destruct (signer_field_sound signer Hs) as [ks [Hks Hin]].
  destruct (loader_field _ _ Hg) as [kg [Hkg Tg]].
  destruct (with_field_some _ _ _ Hacct) as [fa [Hfa [<- Qa]]].
  apply Bool.andb_true_iff in Qa as [Qa Hnf]. apply Bool.andb_true_iff in Qa as [Qa Hsa].
  apply Bool.andb_true_iff in Qa as [Qa Hho]. apply Bool.andb_true_iff in Qa as [Wa Pa].
  destruct (loader_sound fa _ Hfa Wa Pa) as [ka [Hka Ta]].
  pose proof (accepts_has_one fa ka Hfa Pa Hka _ kg Hho Hkg) as Hgrp.
  destruct (has_cons_In _ fa Hsa) as [c1 [e1 [Hc1 M1]]]. apply m_signer_auth_eq in M1. subst c1.
  destruct (has_cons_In _ fa Hnf) as [c2 [e2 [Hc2 M2]]]. apply m_not_frozen_eq in M2. subst c2.
  pose proof (accepts_cons fa ka Hfa Pa Hka _ _ Hc1) as E1.
  pose proof (accepts_cons fa ka Hfa Pa Hka _ _ Hc2) as E2.
  cbn [eval_cons] in E1, E2. rewrite (bound_acct_eq w b _ ka Hka), Hks in E1, E2. rewrite (bound_acct_eq w b _ kg Hkg) in E1.
  destruct (key_field (acct_of w ka) "authority") as [au|] eqn:Eau; [|discriminate].
  destruct (key_field (acct_of w kg) "admin") as [ad|] eqn:Ead; [|discriminate].
  exists ka, ks, kg, au, ad. repeat simple apply conj; trivial.
Qed.

Lemma check_owner_sound acct signer : check_owner e acct signer = true -> owner_rule w b sg acct signer.
Proof.
  intros H. apply Bool.andb_true_iff in H as [H Hacct]. apply Bool.andb_true_iff in H as [Hs Hn].
  apply seqb_eq in Hn. subst signer.
  destruct (signer_field_sound _ Hs) as [ks [Hks Hin]].
  destruct (tied_field _ _ _ ks Hacct Hks) as [ka [Hka [Ta Hau]]].
  exists ka, ks. repeat simple apply conj; trivial.
Qed.

Lemma check_admin_body_sound signer grp : check_admin_body e signer grp = true -> admin_body_rule w b sg signer grp.
Proof.
  intros H. apply Bool.andb_true_iff in H as [Hs Hg].
  destruct (signer_field_sound _ Hs) as [ks [Hks Hin]].
  destruct (loader_field _ _ Hg) as [kg [Hkg Tg]].
  exists ks, kg. repeat simple apply conj; trivial.
Qed.

(* the role is declared by has_one on the group, or by a constraint group.<role> == signer.key() on any field *)
Lemma check_admin_decl_sound r signer grp : check_admin_decl e r signer grp = true -> admin_rule w b sg r signer grp.
Proof.
  intros H. apply Bool.andb_true_iff in H as [Hs Hg].
  destruct (signer_field_sound _ Hs) as [ks [Hks Hin]].
  destruct (with_field_some _ _ _ Hg) as [fg [Hfg [<- Qg]]].
  apply Bool.andb_true_iff in Qg as [Qg Hrole]. apply Bool.andb_true_iff in Qg as [Wg Pg].
  destruct (loader_sound fg _ Hfg Wg Pg) as [kg [Hkg Tg]].
  exists ks, kg. repeat simple apply conj; trivial.
  apply Bool.orb_true_iff in Hrole as [Hrole|Hrole].
  - apply Bool.andb_true_iff in Hrole as [Hn Hho]. apply seqb_eq in Hn. rewrite <- Hn.
    exact (accepts_has_one fg kg Hfg Pg Hkg _ ks Hho Hks).
  - apply existsb_exists in Hrole as [f [Hf Q]]. apply Bool.andb_true_iff in Q as [Pf Hc].
    destruct (has_cons_In _ f Hc) as [c [err [Hin' M]]]. apply m_key_eq_data_field_eq in M. subst c.
    destruct (accepts_bound f Hf) as [kf Hkf].
    pose proof (accepts_cons f kf Hf Pf Hkf _ _ Hin') as E.
    cbn [eval_cons eval_kexpr] in E. rewrite Hkg, Hks in E.
    destruct (opt_key_eqb_true _ _ E) as [x [E1 [= <-]]]. exact E1.
Qed.

Lemma check_fee_admin_sound signer : check_fee_admin e signer = true -> fee_admin_rule pda w b sg signer.
Proof.
  intros H. apply Bool.andb_true_iff in H as [H Hfs]. apply Bool.andb_true_iff in H as [Hs Hn].
  apply seqb_eq in Hn. subst signer.
  destruct (signer_field_sound _ Hs) as [ks [Hks Hin]].
  destruct (with_field_some _ _ _ Hfs) as [ff [Hff [Hn Q]]].
  apply Bool.andb_true_iff in Q as [Q Hse]. apply Bool.andb_true_iff in Q as [Q Hho].
  apply Bool.andb_true_iff in Q as [Wf Pf].
  destruct (loader_sound ff _ Hff Wf Pf) as [kf [Hkf Tf]].
  pose proof (accepts_seeds ff kf _ _ Hff (proj1 (plain_spec ff Pf)) Hkf Hse eq_refl) as Hpda.
  pose proof (accepts_has_one ff kf Hff Pf Hkf _ ks Hho Hks) as Hadm.
  rewrite Hn in Hkf. exists ks, kf. repeat simple apply conj; trivial.
Qed.

Lemma check_bankruptcy_sound signer grp bank acct :
  check_bankruptcy e signer grp bank acct = true -> bankruptcy_rule w b sg signer grp bank acct.
Proof.
  intros H. apply Bool.andb_true_iff in H as [H Hacct]. apply Bool.andb_true_iff in H as [H Hbank].
  apply Bool.andb_true_iff in H as [Hs Hg].
  destruct (signer_field_sound _ Hs) as [ks [Hks Hin]].
  destruct (loader_field _ _ Hg) as [kg [Hkg Tg]].
  destruct (tied_field _ _ _ kg Hbank Hkg) as [kb [Hkb [Tb Gb]]].
  destruct (tied_field _ _ _ kg Hacct Hkg) as [ka [Hka [Ta Ga]]].
  exists ks, kg, kb, ka. repeat simple apply conj; trivial.
Qed.

Lemma check_end_liq_sound acct record receiver :
  check_end_liq e acct record receiver = true -> end_liq_rule w b sg acct record receiver.
Proof.
  intros H. apply Bool.andb_true_iff in H as [H Hrec]. apply Bool.andb_true_iff in H as [Hs Hacct].
  destruct (signer_field_sound _ Hs) as [ks [Hks Hin]].
  destruct (tied_field _ _ _ ks Hrec Hks) as [kr [Hkr [Tr Hrcv]]].
  destruct (tied_field _ _ _ kr Hacct Hkr) as [ka [Hka [Ta Hr]]].
  exists ka, kr, ks. repeat simple apply conj; trivial.
Qed.

Theorem check_class_sound c : check_class e = true -> classify (e_ix e) = Some c -> class_rule pda w b sg c.
Proof.
  unfold check_class. intros K C. rewrite C in K.
  destruct c as [| |roles signer grp| | | | | |]; cbn [class_rule]; trivial.
  - exact (check_user_sound _ _ _ _ K).
  - exact (check_owner_sound _ _ K).
  - destruct roles as [|r [|r' roles]]; cbn [check_admin] in K.
    + exact (check_admin_body_sound _ _ K).
    + exact (check_admin_decl_sound _ _ _ K).
    + exact (check_admin_body_sound _ _ K).
  - exact (check_fee_admin_sound _ K).
  - exact (check_bankruptcy_sound _ _ _ _ K).
  - exact (check_end_liq_sound _ _ _ K).
Qed.

(* the binding checkers: a vault or vault authority belongs to a bank, the fee state is the PDA of "feestate",
   a liquidation record belongs to a marginfi account *)
Lemma belongs_to_sound f a ty lit :
  In f (e_fields e) -> f_opt f = false -> In a (e_fields e) -> wrap_is_loader ty a = true ->
  (plain a && has_one_of a (f_name f)) || seeds_are f [SLit lit; SKeyOf (f_name a)] = true ->
  belongs_to pda e w b (f_name f) ty lit.
Proof.
  intros Hf Ho Hain Hw H. destruct (accepts_bound f Hf) as [k Hk]. destruct (accepts_bound a Hain) as [ka Hka].
  exists k, a, ka. repeat simple apply conj; trivial. apply Bool.orb_true_iff in H as [H|H].
  - left. apply Bool.andb_true_iff in H as [Hp Hho]. exact (accepts_has_one a ka Hain Hp Hka _ k Hho Hk).
  - right. apply (accepts_seeds f k _ _ Hf Ho Hk H). cbn. rewrite Hka. reflexivity.
Qed.

Lemma check_vault_field_sound f lit :
  check_vault_field e f = true -> In f (e_fields e) ->
  contains "vault" (f_name f) = true -> sassoc (f_name f) vault_seed_of_name = Some lit ->
  belongs_to pda e w b (f_name f) "Bank" lit.
Proof.
  unfold check_vault_field. intros F Hf Hc Hs. rewrite Hc, Hs in F.
  apply Bool.andb_true_iff in F as [Ho F]. apply Bool.negb_true_iff in Ho.
  apply existsb_exists in F as [bf [Hbf Hb]]. apply filter_In in Hbf as [Hbf Hbw].
  exact (belongs_to_sound f bf _ lit Hf Ho Hbf Hbw Hb).
Qed.

Lemma check_liq_record_sound f :
  check_liq_record_entry e = true -> In f (e_fields e) -> f_name f = "liquidation_record" ->
  belongs_to pda e w b "liquidation_record" "MarginfiAccount" "liq_record".
Proof.
  intros F Hf Hn. pose proof (proj1 (forallb_forall _ _) F f Hf) as F'. cbv beta in F'.
  rewrite Hn, seqb_refl in F'. rewrite <- Hn.
  apply Bool.andb_true_iff in F' as [Ho F']. apply Bool.negb_true_iff in Ho.
  apply Bool.orb_true_iff in F' as [F'|F']; apply existsb_exists in F' as [a [Hain Q]];
    apply Bool.andb_true_iff in Q as [Q R]; apply Bool.andb_true_iff in Q as [Hw Hpl];
    apply (belongs_to_sound f a _ "liq_record" Hf Ho Hain Hw).
  - rewrite Hn, Hpl, R. reflexivity.
  - rewrite R. apply Bool.orb_true_r.
Qed.

Lemma check_fee_state_field_sound f :
  check_fee_state_field f = true -> In f (e_fields e) -> f_name f = "fee_state" ->
  bkey b "fee_state" = Some (pda PROG_MARGINFI [VStr "feestate"]).
Proof.
  unfold check_fee_state_field. intros F Hf Hn. rewrite Hn, seqb_refl in F.
  apply Bool.andb_true_iff in F as [Hse Ho]. apply Bool.negb_true_iff in Ho.
  destruct (accepts_bound f Hf) as [k Hk].
  rewrite <- Hn, Hk. f_equal. exact (accepts_seeds f k _ _ Hf Ho Hk Hse eq_refl).
Qed.

End Acc.
