(* ReconcileLemmas.v — C04: reconcile_emode_configs (type-crate/src/types/emode.rs, model
   Risk.reconcile_emode) yields, for every tag that is present in ALL the given configs, the
   entry-wise minimum of the flags / init weight / maintenance weight over the configs, and nothing for
   every other tag (intersection with minimum), for any number of configs. *)
Require Import Base Constants Fixed Curve Bank Risk.
From Coq Require Import ZifyBool.
Local Open Scope Z_scope.

Definition tagof (p : rentry * Z) : Z := re_tag (fst p).
Definition mget (t : Z) (m : list (rentry * Z)) : option (rentry * Z) := find (fun p => tagof p =? t) m.
Definition has (t : Z) (c : list rentry) : option rentry := find (fun e => re_tag e =? t) c.

Inductive msorted : list (rentry * Z) -> Prop :=
| ms_nil : msorted []
| ms_cons x r : Forall (fun p => tagof x < tagof p) r -> msorted r -> msorted (x :: r).

Definition mergeE (x e : rentry) : rentry :=
  mkRE (re_tag x) (Z.min (re_flags x) (re_flags e))
       (if re_wi e <? re_wi x then re_wi e else re_wi x)
       (if re_wm e <? re_wm x then re_wm e else re_wm x).
Definition upd (o : option (rentry * Z)) (e : rentry) : rentry * Z :=
  match o with Some (x, c) => (mergeE x e, c + 1) | None => (e, 1) end.

Lemma mergeE_min x e :
  re_tag (mergeE x e) = re_tag x /\ re_flags (mergeE x e) = Z.min (re_flags x) (re_flags e) /\
  re_wi (mergeE x e) = Z.min (re_wi x) (re_wi e) /\ re_wm (mergeE x e) = Z.min (re_wm x) (re_wm e).
Proof.
  unfold mergeE. cbn [re_tag re_flags re_wi re_wm]. repeat split.
  - destruct (re_wi e <? re_wi x) eqn:E; lia.
  - destruct (re_wm e <? re_wm x) eqn:E; lia.
Qed.

Lemma mget_above t m : Forall (fun p => t < tagof p) m -> mget t m = None.
Proof.
  unfold mget. induction 1 as [|x r Hx _ IH]; cbn [find]; [reflexivity|].
  replace (tagof x =? t) with false by lia. exact IH.
Qed.

Lemma merge_entry_tags (P : Z -> Prop) e m :
  P (re_tag e) -> Forall (fun p => P (tagof p)) m -> Forall (fun p => P (tagof p)) (merge_entry e m).
Proof.
  intros He. induction 1 as [|[x c] r Hx Hr IH]; cbn [merge_entry].
  - constructor; [exact He | constructor].
  - destruct (re_tag e <? re_tag x); [constructor; [exact He | constructor; assumption]|].
    destruct (re_tag e =? re_tag x); [constructor; [exact Hx | exact Hr]|].
    constructor; [exact Hx | exact IH].
Qed.

Lemma merge_entry_sorted e m : msorted m -> msorted (merge_entry e m).
Proof.
  induction 1 as [|[x c] r Hx Hr IH]; cbn [merge_entry].
  - constructor; constructor.
  - unfold tagof in Hx. cbn [fst] in Hx.
    destruct (re_tag e <? re_tag x) eqn:E1.
    + constructor; [|constructor; assumption]. constructor; [unfold tagof; cbn [fst]; lia|].
      eapply Forall_impl; [|exact Hx]. intros p Hp. unfold tagof in *. cbn [fst] in *. lia.
    + destruct (re_tag e =? re_tag x) eqn:E2.
      * constructor; [|exact Hr]. exact Hx.
      * constructor; [|exact IH]. apply (merge_entry_tags (fun t => re_tag x < t)); [lia | exact Hx].
Qed.

Lemma mget_cons t x c r : mget t ((x, c) :: r) = if re_tag x =? t then Some (x, c) else mget t r.
Proof. reflexivity. Qed.

Lemma merge_entry_get t e m :
  msorted m -> mget t (merge_entry e m) = if t =? re_tag e then Some (upd (mget t m) e) else mget t m.
Proof.
  induction 1 as [|[x c] r Hx Hr IH]; cbn [merge_entry].
  - rewrite mget_cons. change (mget t []) with (@None (rentry * Z)). cbn [upd].
    destruct (t =? re_tag e) eqn:E; [replace (re_tag e =? t) with true by lia | replace (re_tag e =? t) with false by lia]; reflexivity.
  - unfold tagof in Hx. cbn [fst] in Hx.
    destruct (re_tag e <? re_tag x) eqn:E1.
    + rewrite mget_cons.
      destruct (t =? re_tag e) eqn:E.
      * replace (re_tag e =? t) with true by lia.
        rewrite mget_above; [reflexivity|].
        constructor; [unfold tagof; cbn [fst]; lia|].
        eapply Forall_impl; [|exact Hx]. intros p Hp. unfold tagof in *. cbn [fst] in *. lia.
      * replace (re_tag e =? t) with false by lia. reflexivity.
    + destruct (re_tag e =? re_tag x) eqn:E2.
      * rewrite !mget_cons. cbn [mergeE re_tag].
        destruct (t =? re_tag e) eqn:E.
        -- replace (re_tag x =? t) with true by lia. reflexivity.
        -- replace (re_tag x =? t) with false by lia. reflexivity.
      * rewrite !mget_cons.
        destruct (re_tag x =? t) eqn:E3.
        -- replace (t =? re_tag e) with false by lia. reflexivity.
        -- exact IH.
Qed.

Definition nz (e : rentry) : bool := negb (re_tag e =? EMODE_TAG_EMPTY).
Definition wf_cfg (c : list rentry) : Prop := NoDup (map re_tag (filter nz c)).

Lemma merge_cfg_cons e r m :
  merge_cfg (e :: r) m = merge_cfg r (if re_tag e =? EMODE_TAG_EMPTY then m else merge_entry e m).
Proof. reflexivity. Qed.

Lemma merge_cfg_sorted cfg : forall m, msorted m -> msorted (merge_cfg cfg m).
Proof.
  induction cfg as [|e r IH]; intros m Hm; [exact Hm|].
  rewrite merge_cfg_cons. apply IH. destruct (re_tag e =? EMODE_TAG_EMPTY); [exact Hm | apply merge_entry_sorted; exact Hm].
Qed.

Lemma has_none_notin t r : t <> 0 -> ~ In t (map re_tag (filter nz r)) -> has t r = None.
Proof.
  intros Ht. unfold has. induction r as [|e r IH]; intros Hn; cbn [find]; [reflexivity|].
  cbn [filter] in Hn. unfold nz at 1 in Hn. change EMODE_TAG_EMPTY with 0 in Hn.
  destruct (re_tag e =? t) eqn:E.
  - exfalso. replace (re_tag e =? 0) with false in Hn by lia. cbn [negb map] in Hn. apply Hn. left. lia.
  - apply IH. intros Hin. apply Hn. destruct (negb (re_tag e =? 0)); [right|]; exact Hin.
Qed.

Lemma merge_cfg_get t cfg : t <> 0 -> forall m, msorted m -> wf_cfg cfg ->
  mget t (merge_cfg cfg m) = match has t cfg with Some e => Some (upd (mget t m) e) | None => mget t m end.
Proof.
  intros Ht. induction cfg as [|e r IH]; intros m Hm Hwf; [reflexivity|].
  rewrite merge_cfg_cons. unfold has. cbn [find]. fold (has t r).
  unfold wf_cfg in Hwf. cbn [filter] in Hwf. unfold nz at 1 in Hwf.
  change EMODE_TAG_EMPTY with 0 in *.
  destruct (re_tag e =? 0) eqn:E0; cbn [negb] in Hwf.
  - replace (re_tag e =? t) with false by lia. apply IH; assumption.
  - cbn [map] in Hwf. apply NoDup_cons_iff in Hwf as [Hnin Hwf].
    rewrite IH; [|apply merge_entry_sorted; exact Hm | exact Hwf].
    rewrite merge_entry_get by exact Hm.
    destruct (re_tag e =? t) eqn:E.
    + replace (t =? re_tag e) with true by lia.
      rewrite has_none_notin; [reflexivity | exact Ht |]. replace t with (re_tag e) by lia. exact Hnin.
    + replace (t =? re_tag e) with false by lia. reflexivity.
Qed.

Fixpoint accum (t : Z) (cfgs : list (list rentry)) (o : option (rentry * Z)) : option (rentry * Z) :=
  match cfgs with
  | [] => o
  | c :: r => accum t r (match has t c with Some e => Some (upd o e) | None => o end)
  end.

Lemma fold_cfgs_get t cfgs : t <> 0 -> Forall wf_cfg cfgs -> forall m, msorted m ->
  msorted (fold_left (fun m c => merge_cfg c m) cfgs m) /\
  mget t (fold_left (fun m c => merge_cfg c m) cfgs m) = accum t cfgs (mget t m).
Proof.
  intros Ht. induction 1 as [|c r Hc Hr IH]; intros m Hm; cbn [fold_left accum]; [split; [exact Hm | reflexivity]|].
  destruct (IH (merge_cfg c m) (merge_cfg_sorted _ _ Hm)) as [S G]. split; [exact S|].
  rewrite G, (merge_cfg_get t c Ht m Hm Hc). reflexivity.
Qed.

Fixpoint cnt (t : Z) (l : list (list rentry)) : Z :=
  match l with [] => 0 | c :: r => (match has t c with Some _ => 1 | None => 0 end) + cnt t r end.

Lemma cnt_le t l : 0 <= cnt t l <= Z.of_nat (length l).
Proof. induction l as [|c r IH]; cbn [cnt length]; [lia|]. destruct (has t c); lia. Qed.
Lemma cnt_full t l : cnt t l = Z.of_nat (length l) -> forall c, In c l -> exists e, has t c = Some e.
Proof.
  induction l as [|c r IH]; cbn [cnt length]; intros H c' Hin; [destruct Hin|].
  pose proof (cnt_le t r). destruct (has t c) as [e|] eqn:E; [|lia].
  destruct Hin as [<-|Hin]; [eauto | apply IH; [lia | exact Hin]].
Qed.
Lemma cnt_full_rev t l : (forall c, In c l -> exists e, has t c = Some e) -> cnt t l = Z.of_nat (length l).
Proof.
  induction l as [|c r IH]; cbn [cnt length]; intros H; [reflexivity|].
  destruct (H c (or_introl eq_refl)) as (e & ->). rewrite IH; [lia|]. intros c' Hc'. apply H. right. exact Hc'.
Qed.

Lemma cnt_zero t l c : cnt t l = 0 -> In c l -> has t c = None.
Proof.
  induction l as [|s r IH]; cbn [cnt]; intros H Hin; [destruct Hin|].
  pose proof (cnt_le t r). destruct (has t s) eqn:E; [lia|].
  destruct Hin as [<-|Hin]; [exact E | apply IH; [lia | exact Hin]].
Qed.
Lemma cnt_app t a b : cnt t (a ++ b) = cnt t a + cnt t b.
Proof. induction a as [|c r IH]; cbn [app cnt]; [reflexivity|]. rewrite IH. lia. Qed.
Lemma cnt_rev t l : cnt t (rev l) = cnt t l.
Proof. induction l as [|c r IH]; cbn [rev cnt]; [reflexivity|]. rewrite cnt_app, IH. cbn [cnt]. lia. Qed.

Lemma has_tag t c e : has t c = Some e -> re_tag e = t.
Proof. unfold has. intros H. apply find_some in H as [_ H]. lia. Qed.

Definition least (g : rentry -> Z) (t : Z) (seen : list (list rentry)) (v : Z) : Prop :=
  (forall c e, In c seen -> has t c = Some e -> v <= g e) /\
  (exists c e, In c seen /\ has t c = Some e /\ v = g e).

Lemma least_first g t seen c e : cnt t seen = 0 -> has t c = Some e -> least g t (c :: seen) (g e).
Proof.
  intros Hz Hc. split.
  - intros c' e' [<-|Hin] Hh; [rewrite Hc in Hh; injection Hh as <-; lia|].
    rewrite (cnt_zero _ _ _ Hz Hin) in Hh. discriminate.
  - exists c, e. split; [left; reflexivity | split; [exact Hc | reflexivity]].
Qed.
Lemma least_min g t seen v c e : has t c = Some e -> least g t seen v -> least g t (c :: seen) (Z.min v (g e)).
Proof.
  intros Hc [Hle (c1 & e1 & I1 & H1 & M1)]. split.
  - intros c' e' [<-|Hin] Hh; [rewrite Hc in Hh; injection Hh as <-; lia | pose proof (Hle _ _ Hin Hh); lia].
  - destruct (Z.le_ge_cases v (g e)).
    + exists c1, e1. split; [right; exact I1 | split; [exact H1 | lia]].
    + exists c, e. split; [left; reflexivity | split; [exact Hc | lia]].
Qed.
Lemma least_skip g t seen v c : has t c = None -> least g t seen v -> least g t (c :: seen) v.
Proof.
  intros Hc [Hle (c1 & e1 & I1 & H1 & M1)]. split.
  - intros c' e' [<-|Hin] Hh; [rewrite Hc in Hh; discriminate | exact (Hle _ _ Hin Hh)].
  - exists c1, e1. split; [right; exact I1 | split; assumption].
Qed.
Lemma least_rev g t l v : least g t (rev l) v -> least g t l v.
Proof.
  intros [Hle (c & e & I & H & M)]. split.
  - intros c' e' Hin. apply Hle, (proj1 (in_rev l c')), Hin.
  - exists c, e. split; [exact (proj2 (in_rev l c) I) | split; assumption].
Qed.

(* what has been accumulated after the configs in `seen` *)
Definition good (t : Z) (seen : list (list rentry)) (o : option (rentry * Z)) : Prop :=
  match o with
  | None => cnt t seen = 0
  | Some (x, k) =>
      re_tag x = t /\ k = cnt t seen /\ 0 < k /\
      least re_flags t seen (re_flags x) /\ least re_wi t seen (re_wi x) /\ least re_wm t seen (re_wm x)
  end.

Lemma good_step t seen o c :
  good t seen o -> good t (c :: seen) (match has t c with Some e => Some (upd o e) | None => o end).
Proof.
  intros G. destruct (has t c) as [e|] eqn:Ec.
  - pose proof (has_tag _ _ _ Ec) as Ete. destruct o as [[x k]|]; cbn [upd good cnt] in *; rewrite Ec.
    + destruct G as (Gt & Gk & Gp & Gf & Gi & Gm). destruct (mergeE_min x e) as (-> & -> & -> & ->).
      split; [exact Gt|]. split; [lia|]. split; [lia|]. split; [|split]; apply least_min; assumption.
    + split; [exact Ete|]. split; [lia|]. split; [lia|]. split; [|split]; apply least_first; assumption.
  - destruct o as [[x k]|]; cbn [good cnt] in *; rewrite Ec; [|lia].
    destruct G as (Gt & Gk & Gp & Gf & Gi & Gm).
    split; [exact Gt|]. split; [lia|]. split; [exact Gp|]. split; [|split]; apply least_skip; assumption.
Qed.

Lemma accum_good t rest : forall seen o, good t seen o -> good t (rev rest ++ seen) (accum t rest o).
Proof.
  induction rest as [|c r IH]; intros seen o G; cbn [rev app accum]; [exact G|].
  rewrite <- app_assoc. cbn [app]. apply IH. apply good_step. exact G.
Qed.

Lemma accum_spec t cfgs : good t cfgs (accum t cfgs None).
Proof.
  pose proof (accum_good t cfgs [] None eq_refl) as G. rewrite app_nil_r in G.
  destruct (accum t cfgs None) as [[x k]|]; cbn [good] in *; rewrite cnt_rev in G; [|exact G].
  destruct G as (Gt & Gk & Gp & Gf & Gi & Gm).
  split; [exact Gt|]. split; [exact Gk|]. split; [exact Gp|]. split; [|split]; apply least_rev; assumption.
Qed.

Lemma final_get t n M :
  msorted M ->
  find (fun e => re_tag e =? t) (map fst (filter (fun p => snd p =? n) M)) =
  match mget t M with Some (x, k) => if k =? n then Some x else None | None => None end.
Proof.
  induction 1 as [|[x k] r Hx Hr IH]; [reflexivity|].
  rewrite mget_cons. cbn [filter snd].
  unfold tagof in Hx. cbn [fst] in Hx.
  destruct (re_tag x =? t) eqn:E.
  - destruct (k =? n) eqn:Ek; cbn [map find fst]; [rewrite E; reflexivity|].
    rewrite IH. rewrite mget_above; [reflexivity|]. eapply Forall_impl; [|exact Hx]. intros p Hp. cbn beta in Hp. unfold tagof. lia.
  - destruct (k =? n) eqn:Ek; cbn [map find fst]; [rewrite E|]; exact IH.
Qed.

Lemma find_with_tag_has c t : t <> 0 -> find_with_tag c t = has t c.
Proof. intros Ht. unfold find_with_tag, has. change EMODE_TAG_EMPTY with 0. replace (t =? 0) with false by lia. reflexivity. Qed.

Lemma reconcile_get cfgs t : t <> 0 -> cfgs <> [] -> Forall wf_cfg cfgs ->
  find_with_tag (reconcile_emode cfgs) t =
  match accum t cfgs None with Some (x, k) => if k =? Z.of_nat (length cfgs) then Some x else None | None => None end.
Proof.
  intros Ht Hne Hwf. rewrite find_with_tag_has by exact Ht. unfold has, reconcile_emode.
  destruct cfgs as [|c0 rest]; [congruence|].
  destruct (fold_cfgs_get t (c0 :: rest) Ht Hwf [] ms_nil) as [S G].
  rewrite (final_get t _ _ S), G. reflexivity.
Qed.

Lemma classic_all t l :
  (forall c, In c l -> exists e, has t c = Some e) \/ (exists c, In c l /\ has t c = None).
Proof.
  induction l as [|c r [IH|(c' & Hc' & Hn)]].
  - left. intros c [].
  - destruct (has t c) as [e|] eqn:E.
    + left. intros c' [<-|Hin]; [eauto | apply IH; exact Hin].
    + right. exists c. split; [left; reflexivity | exact E].
  - right. exists c'. split; [right; exact Hc' | exact Hn].
Qed.

