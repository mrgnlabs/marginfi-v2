(* PanicLemmas.v — invariants of the pause state machine (C15).
   The four instructions are first given closed forms on the two shapes a reachable pause state can have;
   the invariant and every property are then read off the closed forms. *)
Require Import Base Constants Panic.
From Coq Require Import ZifyBool.

Local Open Scope Z_scope.

Lemma grun_world g ops : g_w (grun g ops) = prun (g_w g) ops.
Proof.
  revert g; induction ops as [|o ops IH]; intros g; cbn [grun prun fold_left]; [reflexivity|].
  fold (grun (gstep g o) ops). fold (prun (fst (pstep (g_w g) o)) ops).
  rewrite IH. f_equal. unfold gstep. destruct (pstep (g_w g) o) as [w' ok] eqn:E. cbn [fst].
  destruct o; try reflexivity. destruct ok; [destruct (reset_happens _ _)|]; reflexivity.
Qed.

(* A reachable pause state, seen at clock `now`, has one of two shapes: not paused (flag word 0, no start, no
   consecutive count), or paused in its first pause (started in the past) or its second consecutive one
   (started at most 30 min ahead: an extension is booked from the end of the running pause). *)
Inductive pshape (now : Z) : pstate -> Prop :=
| shape_idle dl lr : 0 <= dl <= 3 -> 0 <= lr <= now -> pshape now (mkP 0 dl 0 0 lr)
| shape_paused dl cs st lr : 0 <= dl <= 3 -> 0 <= lr <= now -> 0 <= st ->
    (cs = 1 /\ st <= now) \/ (cs = 2 /\ st <= now + 1800) -> pshape now (mkP 1 dl cs st lr).

Ltac unf :=
  cbv [ix_panic_pause ix_panic_unpause ix_panic_unpause_permissionless ix_propagate
       p_pause p_unpause_if_expired p_unpause p_can_pause p_is_expired c_is_expired is_expired_raw is_protocol_paused
       reset_happens check chk chko bind in_i64 in_range sat_i64 sat_u8 clamp
       FLAG_PAUSED PAUSE_DURATION_SECONDS DAILY_RESET_INTERVAL MAX_CONSECUTIVE_PAUSES
       MAX_DAILY_PAUSES I64_MIN I64_MAX U8_MAX E_PauseLimitExceeded E_ProtocolNotPaused TMAX
       p_flags p_daily p_consec p_start p_last_reset c_flags c_start c_last_update] in *.

Lemma fs0 : flag_set 0 = false. Proof. reflexivity. Qed.
Lemma fs1 : flag_set 1 = true. Proof. reflexivity. Qed.
Lemma land_1 : Z.land 1 (255 - 1) = 0. Proof. reflexivity. Qed.
Lemma land_0 : Z.land 0 (255 - 1) = 0. Proof. reflexivity. Qed.
Lemma lor_0 : Z.lor 0 1 = 1. Proof. reflexivity. Qed.
Lemma lor_1 : Z.lor 1 1 = 1. Proof. reflexivity. Qed.

Ltac norm := rewrite ?fs0, ?fs1, ?land_0, ?land_1, ?lor_0, ?lor_1 in *;
             cbn [negb andb orb fst snd is_ok] in *.

Ltac step_if :=
  match goal with
  | |- context [if ?c then _ else _] =>
      first [ let H := fresh in assert (H : c = true) by lia; rewrite H; clear H
            | let H := fresh in assert (H : c = false) by lia; rewrite H; clear H ]
  end; norm.
Ltac steps := norm; repeat step_if.

Ltac cases_le a b := destruct (Z_le_gt_dec a b).

Lemma sat_i64_id x : I64_MIN <= x <= I64_MAX -> sat_i64 x = x.
Proof. unfold sat_i64, clamp. lia. Qed.
Lemma sat_u8_id x : 0 <= x <= U8_MAX -> sat_u8 x = x.
Proof. unfold sat_u8, clamp. lia. Qed.

Lemma pshape_later now now' p : pshape now p -> now <= now' -> pshape now' p.
Proof. intros [dl lr Hd Hr | dl cs st lr Hd Hr Hs Hc] H; constructor; lia. Qed.

Lemma pshape_facts now p : pshape now p ->
  0 <= p_daily p <= 3 /\ 0 <= p_last_reset p <= now /\ 0 <= p_start p /\ (p_consec p = 1 -> p_start p <= now).
Proof. intros [dl lr Hd Hr | dl cs st lr Hd Hr Hs Hc]; cbn; lia. Qed.

Lemma expired_flagged st now : 0 <= st <= now + 1800 -> 0 <= now < TMAX ->
  is_expired_raw 1 st now = Ok (st + 1800 <=? now).
Proof. intros Hs Hn. unf. cases_le st now; steps; f_equal; lia. Qed.

Lemma unpause_if_expired_idle dl lr now : p_unpause_if_expired (mkP 0 dl 0 0 lr) now = Ok (mkP 0 dl 0 0 lr).
Proof. reflexivity. Qed.

Lemma unpause_if_expired_paused dl cs st lr now : 0 <= st <= now + 1800 -> 0 <= now < TMAX ->
  p_unpause_if_expired (mkP 1 dl cs st lr) now = Ok (if st + 1800 <=? now then mkP 0 dl 0 0 lr else mkP 1 dl cs st lr).
Proof.
  intros Hs Hn. unfold p_unpause_if_expired, p_is_expired. cbn [p_flags p_start].
  rewrite fs1, expired_flagged by assumption. reflexivity.
Qed.

(* the daily counter and the start of its 24 h window, as a pause at `now` sees them *)
Definition resets (p : pstate) (now : Z) : bool := 86400 <=? now - p_last_reset p.
Definition day_count (p : pstate) (now : Z) : Z := if resets p now then 0 else p_daily p.
Definition day_start (p : pstate) (now : Z) : Z := if resets p now then now else p_last_reset p.

Lemma reset_happens_eq p now : 0 <= p_last_reset p <= now -> now < TMAX -> reset_happens p now = resets p now.
Proof. intros Hr Hn. unfold resets. unf. f_equal. lia. Qed.

Lemma can_pause_eq p now : 0 <= p_last_reset p <= now -> now < TMAX ->
  p_can_pause p now = Ok ((p_consec p <? 2) && (day_count p now <? 3)).
Proof. intros Hr Hn. unfold day_count, resets. unf. steps. reflexivity. Qed.

(* PanicStateImpl::pause on a state whose pause, if any, has not run out *)
Definition pause_from (p : pstate) (now : Z) : res pstate :=
  if (p_consec p <? 2) && (day_count p now <? 3)
  then Ok (mkP 1 (day_count p now + 1) (p_consec p + 1) (if p_flags p =? 1 then p_start p + 1800 else now)
               (day_start p now))
  else Err (E E_PauseLimitExceeded).

(* p_pause stage by stage: nothing to settle; the daily reset gives a state p1 that differs from p in the counter and its
   window only; the limits are tested on p1; the new start extends a running pause from its end *)
Lemma pause_live now p : pshape now p -> 0 <= now < TMAX -> (p_flags p = 1 -> now < p_start p + 1800) ->
  p_pause p now = pause_from p now.
Proof.
  intros S Hn Hlive.
  assert (Hset : p_unpause_if_expired p now = Ok p).
  { destruct S as [|dl cs st lr]; [reflexivity|]. cbn [p_flags p_start] in Hlive. rewrite unpause_if_expired_paused by lia.
    destruct (st + 1800 <=? now) eqn:X; [lia | reflexivity]. }
  destruct (pshape_facts _ _ S) as (Hd & Hr & Hst & _).
  unfold p_pause. rewrite Hset. cbn [bind].
  change (DAILY_RESET_INTERVAL <=? sat_i64 (now - p_last_reset p)) with (reset_happens p now).
  rewrite reset_happens_eq by lia. cbv zeta. set (p1 := if resets p now then _ else p).
  assert (E1 : p_flags p1 = p_flags p /\ p_consec p1 = p_consec p /\ p_start p1 = p_start p /\
               p_daily p1 = day_count p now /\ p_last_reset p1 = day_start p now /\ day_count p1 now = day_count p now).
  { unfold p1, day_count, day_start, resets. destruct (86400 <=? now - p_last_reset p) eqn:X; cbn; repeat split; try reflexivity.
    - replace (now - now) with 0 by lia. reflexivity.
    - rewrite X. reflexivity. }
  destruct E1 as (F & C & St & D & R & DC).
  rewrite can_pause_eq by (try rewrite R; unfold day_start; destruct (resets p now); lia).
  unfold p_is_expired. rewrite DC, F, C, St, D, R. clear p1 F C St D R DC. unfold pause_from.
  destruct (_ && _) eqn:OK; cbn [bind check]; [|reflexivity].
  assert (Hb : 0 <= day_count p now <= 2 /\ 0 <= p_consec p <= 1).
  { unfold day_count in *. destruct S, (resets _ _); cbn [p_consec p_daily] in *; lia. }
  rewrite !sat_u8_id by (unfold U8_MAX; lia).
  destruct S as [dl lr ? ? | dl cs st lr ? ? ? ?]; cbn [p_flags p_start] in *; [reflexivity|].
  rewrite fs1, expired_flagged by lia. specialize (Hlive eq_refl).
  replace (st + 1800 <=? now) with false by lia. cbn [bind andb negb Z.eqb Pos.eqb].
  rewrite sat_i64_id by (unf; lia). reflexivity.
Qed.

(* A successful pause instruction either starts a fresh pause now (nothing was running, or it had run out), or
   extends a running first pause by 30 minutes from its end; at most three succeed per 24 h window. *)
Lemma pause_cases now p p' : pshape now p -> 0 <= now < TMAX -> ix_panic_pause p now = Ok p' ->
  day_count p now < 3 /\
  (((p_flags p = 0 \/ p_start p + 1800 <= now) /\ p' = mkP 1 (day_count p now + 1) 1 now (day_start p now)) \/
   (p_flags p = 1 /\ now < p_start p + 1800 /\ p_consec p = 1 /\
    p' = mkP 1 (day_count p now + 1) 2 (p_start p + 1800) (day_start p now))).
Proof.
  intros S Hn. unfold ix_panic_pause.
  destruct S as [dl lr Hd Hr | dl cs st lr Hd Hr Hs Hc]; cbn [p_flags p_start p_consec].
  - rewrite unpause_if_expired_idle. cbn [bind]. rewrite (pause_live now) by (try (constructor; lia); cbn; lia). unfold pause_from. cbn [p_flags p_consec Z.ltb Z.compare andb Z.eqb].
    destruct (_ <? 3) eqn:D; [|discriminate]. intros E; injection E as <-. split; [lia | left; split; [auto | reflexivity]].
  - rewrite unpause_if_expired_paused by lia. destruct (st + 1800 <=? now) eqn:X; cbn [bind].
    + rewrite (pause_live now) by (try (constructor; lia); cbn; lia). unfold pause_from. cbn [p_flags p_consec Z.ltb Z.compare andb Z.eqb].
      change (day_count (mkP 0 dl 0 0 lr) now) with (day_count (mkP 1 dl cs st lr) now).
      change (day_start (mkP 0 dl 0 0 lr) now) with (day_start (mkP 1 dl cs st lr) now).
      destruct (_ <? 3) eqn:D; [|discriminate]. intros E; injection E as <-. split; [lia | left; split; [lia | reflexivity]].
    + rewrite (pause_live now) by (try (constructor; lia); cbn; lia). unfold pause_from. cbn [p_flags p_consec p_start Z.eqb Pos.eqb].
      destruct (_ && _) eqn:D; [|discriminate]. intros E; injection E as <-.
      assert (cs = 1) as -> by lia. split; [lia | right; repeat split; lia].
Qed.

Lemma unpause_spec now p : pshape now p -> 0 <= now < TMAX ->
  ix_panic_unpause p now =
  if p_flags p =? 1 then Ok (mkP 0 (p_daily p) 0 0 (p_last_reset p)) else Err (E E_ProtocolNotPaused).
Proof.
  intros [dl lr Hd Hr | dl cs st lr Hd Hr Hs Hc] Hn; [reflexivity|].
  unfold ix_panic_unpause. cbn [p_flags]. rewrite fs1. cbn [check bind]. rewrite unpause_if_expired_paused by lia.
  destruct (st + 1800 <=? now); reflexivity.
Qed.

Lemma perm_unpause_spec now p : pshape now p -> 0 <= now < TMAX ->
  ix_panic_unpause_permissionless p now =
  if p_flags p =? 1
  then if p_start p + 1800 <=? now then Ok (mkP 0 (p_daily p) 0 0 (p_last_reset p)) else Err (E E_PauseLimitExceeded)
  else Err (E E_ProtocolNotPaused).
Proof.
  intros [dl lr Hd Hr | dl cs st lr Hd Hr Hs Hc] Hn; [reflexivity|]. cbn [p_flags p_start p_daily p_last_reset Z.eqb Pos.eqb]. unf.
  cases_le st now; cases_le (st + 1800) now; try (exfalso; lia); steps; reflexivity.
Qed.

Record PInv (g : gworld) : Prop := {
  i_now   : 0 <= NOW g;
  i_p     : pshape (NOW g) (P g);
  i_since : g_since g = p_daily (P g);
  i_rhead : hd 0 (g_resets g) = p_last_reset (P g);
  i_spaced : spaced (g_resets g);
  i_cache : (c_flags (w_c (g_w g)) = 0 \/ c_flags (w_c (g_w g)) = 1) /\
            0 <= c_start (w_c (g_w g)) <= NOW g + 1800
}.

Lemma PInv_init now : 0 <= now -> PInv (g_init now).
Proof. intros H. constructor; cbn; try lia; try tauto. constructor; lia. Qed.

Lemma spaced_cons a l : DAILY_RESET_INTERVAL <= a - hd 0 l -> spaced l -> spaced (a :: l).
Proof. destruct l; cbn; auto. Qed.

Definition tick_of (o : pop) : Z := match o with OpTick dt => Z.max 0 dt | _ => 0 end.

Lemma PInv_step g o :
  PInv g -> NOW g + tick_of o < TMAX -> PInv (gstep g o).
Proof.
  intros [Hnow Hp Hs Hrh Hsp Hc]. destruct g as [[p c now] since rs].
  unfold NOW, P in *. cbn [g_w w_p w_c w_now g_since g_resets tick_of] in *. intros Hlt.
  destruct (pshape_facts _ _ Hp) as (Hd & Hr & Hst & Hfirst). assert (Hn : 0 <= now < TMAX) by (destruct o; cbn [tick_of] in Hlt; lia).
  destruct o as [ | | | |dt]; unfold gstep, pstep; cbn [g_w w_p w_c w_now].
  - destruct (ix_panic_pause p now) as [p'|] eqn:E; [|constructor; assumption].
    destruct (pause_cases _ _ _ Hp Hn E) as (Hlim & Hp').
    rewrite reset_happens_eq by lia. unfold day_count, day_start in *.
    assert (Hp'' : pshape now p' /\ p_daily p' = (if resets p now then 0 else p_daily p) + 1 /\
                   p_last_reset p' = (if resets p now then now else p_last_reset p)).
    { destruct Hp' as [[_ ->] | (_ & _ & ? & ->)]; (split; [|split; reflexivity]);
      constructor; unfold resets in *; destruct (86400 <=? now - p_last_reset p); lia. }
    destruct Hp'' as (S' & D' & R'). unfold resets in *.
    destruct (86400 <=? now - p_last_reset p) eqn:X; constructor; unfold NOW, P;
      cbn [g_w w_p w_c w_now g_since g_resets hd]; try assumption; try lia.
    apply spaced_cons; [unfold DAILY_RESET_INTERVAL; lia | assumption].
  - rewrite (unpause_spec _ _ Hp Hn).
    destruct (p_flags p =? 1); constructor; unfold NOW, P; cbn [g_w w_p w_c w_now g_since g_resets fst]; try assumption.
    constructor; lia.
  - rewrite (perm_unpause_spec _ _ Hp Hn).
    destruct (p_flags p =? 1); [destruct (_ <=? now)|]; constructor; unfold NOW, P;
      cbn [g_w w_p w_c w_now g_since g_resets fst]; try assumption.
    constructor; lia.
  - constructor; unfold NOW, P; cbn [g_w w_p w_c w_now g_since g_resets fst ix_propagate c_flags c_start]; try assumption.
    destruct Hp as [dl lr ? ? | dl cs st lr ? ? ? ?]; cbn [p_flags p_start]; lia.
  - constructor; unfold NOW, P; cbn [g_w w_p w_c w_now g_since g_resets fst]; try assumption; try lia.
    apply (pshape_later now); [assumption | lia].
Qed.

Lemma now_step g o : NOW (gstep g o) = NOW g + tick_of o.
Proof.
  destruct g as [[p c now] since rs]. unfold NOW, gstep, pstep. cbn [g_w w_p w_c w_now].
  destruct o; cbn [tick_of];
    [destruct (ix_panic_pause p now); [destruct (reset_happens p now)|] | destruct (ix_panic_unpause p now)
    | destruct (ix_panic_unpause_permissionless p now) | | ]; cbn [g_w w_now]; lia.
Qed.

Lemma now_mono_run ops : forall g, NOW g <= NOW (grun g ops).
Proof.
  induction ops as [|o ops IH]; intros g; cbn [grun fold_left]; [lia|].
  fold (grun (gstep g o) ops). specialize (IH (gstep g o)). rewrite now_step in IH. destruct o; cbn [tick_of] in IH; lia.
Qed.

Lemma PInv_run ops : forall g, PInv g -> NOW (grun g ops) < TMAX -> PInv (grun g ops).
Proof.
  induction ops as [|o ops IH]; intros g Hi Hlt; cbn [grun fold_left] in *; [assumption|].
  fold (grun (gstep g o) ops) in *. apply IH; [|assumption].
  apply PInv_step; [assumption|]. rewrite <- now_step. pose proof (now_mono_run ops (gstep g o)). lia.
Qed.

Lemma reach_inv now0 ops : 0 <= now0 -> NOW (reach now0 ops) < 2^62 -> PInv (reach now0 ops).
Proof. intros H0 Hlt. exact (PInv_run ops _ (PInv_init _ H0) Hlt). Qed.

(* (a) each successful pause pushes the paused-until time forward by at most 30 minutes;
       no other instruction pushes it forward at all *)
Lemma pause_extends_le_1800 now p p' : pshape now p -> 0 <= now < TMAX -> ix_panic_pause p now = Ok p' ->
  paused_until p' now <= paused_until p now + 1800.
Proof.
  intros S Hn E. destruct (pause_cases _ _ _ S Hn E) as (_ & [[Hidle ->] | (Hf & Hlive & _ & ->)]);
    unfold paused_until, PAUSE_DURATION_SECONDS; cbn [p_flags p_start]; rewrite fs1.
  - destruct (flag_set (p_flags p)); lia.
  - rewrite Hf, fs1. lia.
Qed.

Lemma nonpause_never_extends w o : pshape (w_now w) (w_p w) -> 0 <= w_now w < TMAX ->
  match o with OpPause | OpTick _ => True | _ =>
    paused_until (w_p (fst (pstep w o))) (w_now w) <= paused_until (w_p w) (w_now w) end.
Proof.
  destruct w as [p c now]. cbn [w_p w_now]. intros S Hn.
  destruct o; try exact I; unfold pstep; cbn [w_p w_c w_now].
  - rewrite (unpause_spec _ _ S Hn). destruct (p_flags p =? 1); cbn [fst w_p]; [|lia].
    unfold paused_until at 1. cbn [p_flags]. rewrite fs0. unfold paused_until. destruct (flag_set _); lia.
  - rewrite (perm_unpause_spec _ _ S Hn). destruct (p_flags p =? 1); [destruct (_ <=? now)|]; cbn [fst w_p]; try lia.
    unfold paused_until at 1. cbn [p_flags]. rewrite fs0. unfold paused_until. destruct (flag_set _); lia.
  - cbn [fst w_p]. lia.
Qed.

(* (b) never scheduled to stay paused more than 60 minutes beyond the present *)
Lemma horizon_3600 now p : pshape now p -> paused_until p now <= now + 3600.
Proof.
  intros [dl lr ? ? | dl cs st lr ? ? ? ?]; unfold paused_until, PAUSE_DURATION_SECONDS; cbn [p_flags p_start];
    rewrite ?fs0, ?fs1; lia.
Qed.

(* `paused_until` is exactly the horizon of `blocked` *)
Lemma blocked_iff now p t : pshape now p -> now <= t < TMAX -> 0 <= now ->
  blocked p t = Ok (negb (p_flags p =? 0) && (t <? paused_until p now)).
Proof.
  intros [dl lr ? ? | dl cs st lr ? ? ? ?] Ht Hn; unfold blocked, paused_until; cbn [p_flags p_start ix_propagate]; [reflexivity|].
  unf. cases_le st t; cases_le 1800 (t - st); steps; f_equal; lia.
Qed.

(* (d) an expired pause does not block: the cached state held by any group *)
Lemma expired_cache_not_paused g now' :
  PInv g -> c_start (w_c (g_w g)) + 1800 <= now' -> now' < TMAX ->
  is_protocol_paused (w_c (g_w g)) now' = Ok false.
Proof.
  intros [_ _ _ _ _ [Hcf Hcs]]. destruct (w_c (g_w g)) as [cf cst clu]. cbn [c_flags c_start] in *. intros H1 H2.
  destruct Hcf as [-> | ->]; [reflexivity|]. unf. steps. f_equal. lia.
Qed.


(* (c) daily limit *)
Lemma daily_limit g : PInv g -> g_since g <= 3 /\ spaced_by 86400 (g_resets g).
Proof. intros [_ Hp Hs _ Hsp _]. destruct (pshape_facts _ _ Hp) as (? & _). split; [lia | exact Hsp]. Qed.
