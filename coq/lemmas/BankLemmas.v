(* BankLemmas.v — inversion ("spec") lemmas for the wrapper primitives of Bank.v.
   A primitive is a chain of binds; each step is inverted by the lemma of the operation it calls, until the
   results stand as chains of field updates over the inputs. Their fields are then read off by computation. *)
Require Import Base Constants Fixed Curve Bank FixedLemmas.
From Coq Require Import ZifyBool.
Local Open Scope Z_scope.

(* every bind of a successful computation at once (bind_inv, in FixedLemmas, does one and names its results); the
   intermediate values are x, x0, ... and their equations Hx, Hx0, ... in the order of the binds *)
Ltac bind_inv_all H :=
  repeat (let x := fresh "x" in let Hx := fresh "Hx" in apply bind_ok in H as (x & Hx & H)).

Lemma math_ok {A} (r : res A) v : math r = Ok v -> r = Ok v.
Proof. exact (ok_or_inv r EMath v). Qed.

Lemma math_chko_err inr z e : math (chko inr z) = Err e -> e = EMath.
Proof. unfold math, ok_or, chko. destruct (inr z); intros H; inversion H; reflexivity. Qed.

Lemma claim_emissions_eq b bl now b1 bl1 :
  claim_emissions b bl now = Ok (b1, bl1) ->
  exists rem em, b1 = set_b_em_rem rem b /\ bl1 = set_bl_last now (set_bl_em em bl).
Proof.
  unfold claim_emissions. intros H. bind_inv_all H. destruct x0 as [amount|].
  - bind_inv_all H. apply pair_ok in H as [<- <-]. eauto.
  - apply pair_ok in H as [<- <-]. exists (b_em_rem b), (bl_em bl). destruct b, bl. split; reflexivity.
Qed.

(* claim_emissions conserves emissions exactly: what a position is credited is taken from the
   bank's remaining amount, it is never more than that remaining amount, and a non-negative remaining
   amount stays non-negative unless the position's emissions did not grow *)
Lemma claim_emissions_conserves b bl now b' bl' :
  claim_emissions b bl now = Ok (b', bl') ->
  b_em_rem b' + bl_em bl' = b_em_rem b + bl_em bl /\
  bl_em bl' - bl_em bl <= Z.max 0 (b_em_rem b) /\
  (0 <= b_em_rem b -> 0 <= b_em_rem b' \/ bl_em bl' <= bl_em bl).
Proof.
  unfold claim_emissions. intros H.
  bind_inv H as sd _. bind_inv H as amt _.
  destruct amt as [amount|].
  - bind_inv H as p _. bind_inv H as em _.
    bind_inv H as out Ho. apply math_ok, cadd_inv in Ho as [-> _].
    bind_inv H as rem Hr. apply math_ok, csub_inv in Hr as [-> _].
    apply pair_ok in H as [<- <-]. cbn. unfold fmin. repeat split; lia.
  - apply pair_ok in H as [<- <-]. cbn. repeat split; lia.
Qed.

(* settle: whole tokens paid out + fraction kept = outstanding *)
Lemma settle_emissions_exact b bl now b' bl' n :
  settle_emissions b bl now = Ok (b', bl', n) ->
  exists b1 bl1, claim_emissions b bl now = Ok (b1, bl1) /\ b' = b1 /\
  n * ONE + bl_em bl' = bl_em bl1 /\ 0 <= bl_em bl' < ONE /\ 0 <= n <= U64_MAX.
Proof.
  unfold settle_emissions. intros H.
  bind_inv H as [b1 bl1] Hc.
  bind_inv H as fl Hf. apply math_ok, cfloor_inv in Hf.
  bind_inv H as rest Hr. apply math_ok, csub_inv in Hr as [-> _].
  bind_inv H as n0 Hn. apply math_ok, to_u64_inv in Hn as [Hn Hnr].
  apply Ok_inj in H. inversion H; subst b' bl' n.
  exists b1, bl1. split; [exact Hc|]. split; [reflexivity|]. cbn [bl_em set_bl_em].
  pose proof ONE_pos. pose proof (Z.div_mod (bl_em bl1) ONE ltac:(lia)). pose proof (Z.mod_pos_bound (bl_em bl1) ONE ltac:(lia)).
  subst fl n0. rewrite Z.div_mul in * by lia. repeat split; lia.
Qed.

Definition bank_same_core (b b' : bank) : Prop :=
  b_asv b' = b_asv b /\ b_lsv b' = b_lsv b /\ b_tas b' = b_tas b /\ b_tls b' = b_tls b /\
  b_ins b' = b_ins b /\ b_grp b' = b_grp b /\ b_prog b' = b_prog b /\
  b_last_update b' = b_last_update b /\ b_dep_limit b' = b_dep_limit b /\
  b_bor_limit b' = b_bor_limit b /\ b_asset_tag b' = b_asset_tag b /\ b_decimals b' = b_decimals b /\
  b_flags b' = b_flags b /\ b_em_rate b' = b_em_rate b /\ b_lend_cnt b' = b_lend_cnt b /\
  b_bor_cnt b' = b_bor_cnt b /\ b_op_state b' = b_op_state b /\ b_ir b' = b_ir b.

Definition bal_same_core (bl bl' : balance) : Prop :=
  bl_active bl' = bl_active bl /\ bl_bank bl' = bl_bank bl /\ bl_tag bl' = bl_tag bl /\
  bl_a bl' = bl_a bl /\ bl_l bl' = bl_l bl.

Lemma claim_emissions_core b bl now b1 bl1 :
  claim_emissions b bl now = Ok (b1, bl1) -> bank_same_core b b1 /\ bal_same_core bl bl1.
Proof. intros H. apply claim_emissions_eq in H as (rem & em & -> & ->). split; repeat split; reflexivity. Qed.

Lemma update_counts_eq b ha hl ha' hl' :
  exists lc bc, update_counts b ha hl ha' hl' = set_b_bor_cnt bc (set_b_lend_cnt lc b).
Proof.
  exists (b_lend_cnt (update_counts b ha hl ha' hl')), (b_bor_cnt (update_counts b ha hl ha' hl')).
  unfold update_counts. destruct b.
  destruct (negb ha && ha'), (ha && negb ha'), (negb hl && hl'), (hl && negb hl'); reflexivity.
Qed.

Lemma get_asset_amount_inv b sh v : get_asset_amount b sh = Ok v -> v = sh * b_asv b / ONE.
Proof. intros H. apply math_ok, cmul_inv in H as [-> _]. reflexivity. Qed.
Lemma get_liability_amount_inv b sh v : get_liability_amount b sh = Ok v -> v = sh * b_lsv b / ONE.
Proof. intros H. apply math_ok, cmul_inv in H as [-> _]. reflexivity. Qed.

Lemma amount_nonneg sh sv : 0 <= sh -> 0 <= sv -> 0 <= sh * sv / ONE.
Proof. intros. apply Z.div_pos; [apply Z.mul_nonneg_nonneg; assumption | apply ONE_pos]. Qed.

(* an amount of x shares at value sv, turned back into shares, gives at most x, and misses x by less than (1 + sv) / sv *)
Lemma resid_bound x sv : 0 <= x -> 0 < sv ->
  0 <= x * sv / ONE * ONE / sv <= x /\ (x - x * sv / ONE * ONE / sv) * sv < ONE + sv.
Proof.
  intros Hx Hs. pose proof ONE_pos as HO.
  assert (Hc : 0 <= x * sv / ONE) by (apply amount_nonneg; lia).
  pose proof (Z.mul_div_le (x * sv) ONE HO) as D1. pose proof (Z.mul_succ_div_gt (x * sv) ONE HO) as D2.
  set (cur := x * sv / ONE) in *.
  pose proof (Z.mul_div_le (cur * ONE) sv Hs) as D3. pose proof (Z.mul_succ_div_gt (cur * ONE) sv Hs) as D4.
  assert (Hq : 0 <= cur * ONE / sv) by (apply Z.div_pos; [apply Z.mul_nonneg_nonneg|]; lia).
  set (q := cur * ONE / sv) in *.
  assert (Hqx : q <= x) by (apply (Z.mul_le_mono_pos_l q x sv Hs); lia). lia.
Qed.

(* get_asset_amount / get_liability_amount of non-negative shares at a non-negative share value *)
Lemma amount_inv sh sv v :
  0 <= sh -> 0 <= sv -> math (cmul sh sv) = Ok v -> v = sh * sv / ONE /\ 0 <= v <= I128_MAX.
Proof.
  intros Hsh Hsv H. apply math_ok, cmul_inv in H as [-> H]. pose proof (amount_nonneg _ _ Hsh Hsv). lia.
Qed.

Definition ashares (b : bank) (amt : Z) : Z := if b_asv b =? 0 then 0 else amt * ONE / b_asv b.
Definition lshares (b : bank) (amt : Z) : Z := amt * ONE / b_lsv b.

Lemma ashares_zero b : ashares b 0 = 0.
Proof. unfold ashares. destruct (b_asv b =? 0); reflexivity. Qed.

Lemma get_asset_shares_inv b v s : 0 <= v -> 0 <= b_asv b -> get_asset_shares b v = Ok s -> s = ashares b v.
Proof.
  unfold get_asset_shares, ashares. intros Hv Ha H. destruct (b_asv b =? 0) eqn:E.
  - apply Ok_inj in H. auto.
  - apply math_ok, cdiv_inv_nonneg in H as [-> _]; [reflexivity | lia | lia].
Qed.
Lemma get_liability_shares_inv b v s : 0 <= v -> 0 < b_lsv b -> get_liability_shares b v = Ok s -> s = lshares b v.
Proof. intros Hv Hl H. apply math_ok, cdiv_inv_nonneg in H as [-> _]; [reflexivity | lia | lia]. Qed.

Lemma change_asset_shares_inv b sh byp b' :
  change_asset_shares b sh byp = Ok b' -> b' = set_b_tas (b_tas b + sh) b.
Proof.
  unfold change_asset_shares. intros H. bind_inv_all H. apply math_ok, cadd_inv in Hx as [-> _].
  destruct ((0 <? sh) && dep_limit_active (set_b_tas (b_tas b + sh) b) && negb byp).
  - bind_inv_all H. destruct (x0 <=? x); [discriminate|]. apply Ok_inj in H. auto.
  - apply Ok_inj in H. auto.
Qed.
Lemma change_liability_shares_inv b sh byp b' :
  change_liability_shares b sh byp = Ok b' -> b' = set_b_tls (b_tls b + sh) b.
Proof.
  unfold change_liability_shares. intros H. bind_inv_all H. apply math_ok, cadd_inv in Hx as [-> _].
  destruct (negb byp && (0 <? sh) && bor_limit_active (set_b_tls (b_tls b + sh) b)).
  - bind_inv_all H. destruct (of_int _ <=? x); [discriminate|]. apply Ok_inj in H. auto.
  - apply Ok_inj in H. auto.
Qed.

Lemma change_asset_shares_limit b sh b' :
  change_asset_shares b sh false = Ok b' -> 0 < sh -> b_dep_limit b <> U64_MAX ->
  b_asset_tag b <> ASSET_TAG_DRIFT ->
  (b_tas b + sh) * b_asv b / ONE < of_int (b_dep_limit b).
Proof.
  unfold change_asset_shares, dep_limit_active, deposit_limit_fx. intros H Hs Hl Ht.
  bind_inv_all H. apply math_ok, cadd_inv in Hx as [-> _]. cbn [set_b_tas b_dep_limit b_asset_tag] in H.
  replace (b_dep_limit b =? U64_MAX) with false in H by lia.
  replace (0 <? sh) with true in H by lia.
  replace (b_asset_tag b =? ASSET_TAG_DRIFT) with false in H by lia.
  bind_inv_all H. apply get_asset_amount_inv in Hx. apply Ok_inj in Hx0. subst x x0.
  destruct (_ <=? _) eqn:F in H; [discriminate|]. exact (proj1 (Z.leb_gt _ _) F).
Qed.

Lemma change_liability_shares_limit b sh b' :
  change_liability_shares b sh false = Ok b' -> 0 < sh -> b_bor_limit b <> U64_MAX ->
  (b_tls b + sh) * b_lsv b / ONE < of_int (b_bor_limit b).
Proof.
  unfold change_liability_shares, bor_limit_active. intros H Hs Hl.
  bind_inv_all H. apply math_ok, cadd_inv in Hx as [-> _]. cbn [set_b_tls b_bor_limit] in H.
  replace (b_bor_limit b =? U64_MAX) with false in H by lia.
  replace (0 <? sh) with true in H by lia.
  bind_inv_all H. apply get_liability_amount_inv in Hx. subst x.
  destruct (_ <=? _) eqn:F in H; [discriminate|]. exact (proj1 (Z.leb_gt _ _) F).
Qed.

Lemma check_utilization_inv b u : check_utilization_ratio b = Ok u ->
  b_tls b * b_lsv b / ONE <= b_tas b * b_asv b / ONE.
Proof.
  unfold check_utilization_ratio. intros H. bind_inv_all H.
  apply get_asset_amount_inv in Hx. apply get_liability_amount_inv in Hx0.
  destruct (x <? x0) eqn:F; [discriminate|]. lia.
Qed.

Lemma is_zero_tol_small x : 0 <= x <= I128_MAX -> is_zero_tol x = true -> x < ZERO_AMOUNT_THRESHOLD.
Proof.
  unfold is_zero_tol, fabs_w. intros Hx H. rewrite wrap128_id in H; [lia|].
  rewrite I128_MIN_val, I128_MAX_val in *. lia.
Qed.

Definition wf_sv (b : bank) : Prop := 0 <= b_asv b /\ 0 < b_lsv b.
Definition wf_bal (bl : balance) : Prop := 0 <= bl_a bl /\ 0 <= bl_l bl.

Definition inc_l_dec (b : bank) (bl : balance) (delta : Z) : Z := Z.min (bl_l bl * b_lsv b / ONE) delta.
Definition inc_a_inc (b : bank) (bl : balance) (delta : Z) : Z := Z.max (delta - bl_l bl * b_lsv b / ONE) 0.

Record inc_facts (b : bank) (bl : balance) (delta : fx) (t : inc_type) (b' : bank) (bl' : balance) : Prop := {
  if_a : bl_a bl' = bl_a bl + ashares b (inc_a_inc b bl delta);
  if_l : bl_l bl' = bl_l bl - lshares b (inc_l_dec b bl delta);
  if_tas : b_tas b' = b_tas b + ashares b (inc_a_inc b bl delta);
  if_tls : b_tls b' = b_tls b - lshares b (inc_l_dec b bl delta);
  if_sv : b_asv b' = b_asv b /\ b_lsv b' = b_lsv b;
  if_fees : b_ins b' = b_ins b /\ b_grp b' = b_grp b /\ b_prog b' = b_prog b;
  if_meta : bl_active bl' = bl_active bl /\ bl_bank bl' = bl_bank bl /\ bl_tag bl' = bl_tag bl;
  if_cfg : b_dep_limit b' = b_dep_limit b /\ b_bor_limit b' = b_bor_limit b /\ b_last_update b' = b_last_update b
           /\ b_flags b' = b_flags b /\ b_asset_tag b' = b_asset_tag b;
  if_type : match t with
            | IncRepayOnly => inc_a_inc b bl delta < ZERO_AMOUNT_THRESHOLD
            | IncDepositOnly => inc_l_dec b bl delta < ZERO_AMOUNT_THRESHOLD
            | IncBypassDepositLimit => True end;
  if_cap : match t with
           | IncBypassDepositLimit => True
           | _ => 0 < ashares b (inc_a_inc b bl delta) -> b_dep_limit b <> U64_MAX -> b_asset_tag b <> ASSET_TAG_DRIFT ->
                  b_tas b' * b_asv b' / ONE < of_int (b_dep_limit b') end
}.

Lemma increase_balance_inv b bl now delta t b' bl' :
  wf_sv b -> wf_bal bl -> 0 <= delta ->
  increase_balance b bl now delta t = Ok (b', bl') -> inc_facts b bl delta t b' bl'.
Proof.
  intros [Hasv Hlsv] [Hba Hbl] Hd H. unfold increase_balance in H.
  apply bind_ok in H as ([b0 bl0] & Hc & H). apply claim_emissions_eq in Hc as (rem & em & -> & ->).
  apply bind_ok in H as (cur_l & Hcur & H).
  apply (amount_inv (bl_l bl) (b_lsv b)) in Hcur as [Ecur Hcr]; [| exact Hbl | lia].
  apply bind_ok in H as (d0 & Hd0 & H). apply math_ok, csub_inv in Hd0 as [-> Hd0].
  apply bind_ok in H as (u & Hty & H).
  apply bind_ok in H as (ash & Hash & H).
  apply get_asset_shares_inv in Hash as ->; [| unfold fmax; lia | exact Hasv].
  apply bind_ok in H as (a' & Ha' & H). apply math_ok, cadd_inv in Ha' as [-> _].
  apply bind_ok in H as (b1 & Hb1 & H). pose proof (change_asset_shares_inv _ _ _ _ Hb1) as ->.
  apply bind_ok in H as (lsh & Hlsh & H).
  apply get_liability_shares_inv in Hlsh as ->; [| unfold fmin; lia | exact Hlsv].
  apply bind_ok in H as (nl & Hnl & H). apply chk_inv in Hnl as [-> _].
  apply bind_ok in H as (l' & Hl' & H). apply math_ok, cadd_inv in Hl' as [-> _].
  apply bind_ok in H as (b2 & Hb2 & H). apply change_liability_shares_inv in Hb2 as ->.
  apply pair_ok in H as [<- <-]. edestruct update_counts_eq as (lc & bc & ->).
  subst cur_l. constructor; try (repeat split; reflexivity).
  - destruct t; [| | exact I]; refine (is_zero_tol_small _ _ (check_ok _ _ _ Hty)); unfold fmax, fmin; lia.
  - destruct t; [| | exact I]; exact (change_asset_shares_limit _ _ _ Hb1).
Qed.

Definition dec_a_dec (b : bank) (bl : balance) (delta : Z) : Z := Z.min (bl_a bl * b_asv b / ONE) delta.
Definition dec_l_inc (b : bank) (bl : balance) (delta : Z) : Z := Z.max (delta - bl_a bl * b_asv b / ONE) 0.

Record dec_facts (b : bank) (bl : balance) (delta : fx) (t : dec_type) (b' : bank) (bl' : balance) : Prop := {
  df_a : bl_a bl' = bl_a bl - ashares b (dec_a_dec b bl delta);
  df_l : bl_l bl' = bl_l bl + lshares b (dec_l_inc b bl delta);
  df_tas : b_tas b' = b_tas b - ashares b (dec_a_dec b bl delta);
  df_tls : b_tls b' = b_tls b + lshares b (dec_l_inc b bl delta);
  df_sv : b_asv b' = b_asv b /\ b_lsv b' = b_lsv b;
  df_fees : b_ins b' = b_ins b /\ b_grp b' = b_grp b /\ b_prog b' = b_prog b;
  df_meta : bl_active bl' = bl_active bl /\ bl_bank bl' = bl_bank bl /\ bl_tag bl' = bl_tag bl;
  df_cfg : b_dep_limit b' = b_dep_limit b /\ b_bor_limit b' = b_bor_limit b /\ b_last_update b' = b_last_update b
           /\ b_flags b' = b_flags b /\ b_asset_tag b' = b_asset_tag b;
  df_type : match t with
            | DecWithdrawOnly => dec_l_inc b bl delta < ZERO_AMOUNT_THRESHOLD
            | DecBorrowOnly => dec_a_dec b bl delta < ZERO_AMOUNT_THRESHOLD
            | DecBypassBorrowLimit => True end;
  df_cap : match t with
           | DecBypassBorrowLimit => True
           | _ => (0 < lshares b (dec_l_inc b bl delta) -> b_bor_limit b <> U64_MAX ->
                   b_tls b' * b_lsv b' / ONE < of_int (b_bor_limit b')) /\
                  b_tls b' * b_lsv b' / ONE <= b_tas b' * b_asv b' / ONE end
}.

Lemma decrease_balance_inv b bl now delta t b' bl' :
  wf_sv b -> wf_bal bl -> 0 <= delta ->
  decrease_balance b bl now delta t = Ok (b', bl') -> dec_facts b bl delta t b' bl'.
Proof.
  intros [Hasv Hlsv] [Hba Hbl] Hd H. unfold decrease_balance in H.
  apply bind_ok in H as ([b0 bl0] & Hc & H). apply claim_emissions_eq in Hc as (rem & em & -> & ->).
  apply bind_ok in H as (cur_a & Hcur & H).
  apply (amount_inv (bl_a bl) (b_asv b)) in Hcur as [Ecur Hcr]; [| exact Hba | exact Hasv].
  apply bind_ok in H as (d0 & Hd0 & H). apply math_ok, csub_inv in Hd0 as [-> Hd0].
  apply bind_ok in H as (u & Hty & H).
  apply bind_ok in H as (ash & Hash & H).
  apply get_asset_shares_inv in Hash as ->; [| unfold fmin; lia | exact Hasv].
  apply bind_ok in H as (nash & Hnash & H). apply chk_inv in Hnash as [-> _].
  apply bind_ok in H as (a' & Ha' & H). apply math_ok, cadd_inv in Ha' as [-> _].
  apply bind_ok in H as (b1 & Hb1 & H). apply change_asset_shares_inv in Hb1 as ->.
  apply bind_ok in H as (lsh & Hlsh & H).
  apply get_liability_shares_inv in Hlsh as ->; [| unfold fmax; lia | exact Hlsv].
  apply bind_ok in H as (l' & Hl' & H). apply math_ok, cadd_inv in Hl' as [-> _].
  apply bind_ok in H as (b2 & Hb2 & H). pose proof (change_liability_shares_inv _ _ _ _ Hb2) as ->.
  apply bind_ok in H as (u2 & Hut & H).
  apply pair_ok in H as [<- <-]. edestruct update_counts_eq as (lc & bc & ->).
  subst cur_a. constructor; try (repeat split; reflexivity).
  - destruct t; [| | exact I]; refine (is_zero_tol_small _ _ (check_ok _ _ _ Hty)); unfold fmax, fmin; lia.
  - destruct t; [| | exact I];
      (split; [exact (change_liability_shares_limit _ _ _ Hb2) | exact (check_utilization_inv _ _ Hut)]).
Qed.

Record wall_facts (b : bank) (bl : balance) (b' : bank) (bl' : balance) (n : Z) : Prop := {
  wa_payout : n = (bl_a bl * b_asv b / ONE) / ONE;                      (* floor of the asset amount, in tokens *)
  wa_dust : b_ins b' = b_ins b + (bl_a bl * b_asv b / ONE) mod ONE;     (* fraction booked to insurance fees *)
  wa_tas : b_tas b' = b_tas b - bl_a bl;
  wa_tls : b_tls b' = b_tls b;
  wa_sv : b_asv b' = b_asv b /\ b_lsv b' = b_lsv b;
  wa_fees : b_grp b' = b_grp b /\ b_prog b' = b_prog b;
  wa_closed : bl' = bal_empty;
  wa_pos : ZERO_AMOUNT_THRESHOLD < bl_a bl * b_asv b / ONE;
  wa_liab_dust : bl_l bl * b_lsv b / ONE < ZERO_AMOUNT_THRESHOLD;
  wa_util : b_tls b' * b_lsv b' / ONE <= b_tas b' * b_asv b' / ONE;
  wa_range : 0 <= n <= U64_MAX
}.

Lemma dec_lend_fields b : let b' := dec_lend b in
  b_asv b' = b_asv b /\ b_lsv b' = b_lsv b /\ b_tas b' = b_tas b /\ b_tls b' = b_tls b /\
  b_ins b' = b_ins b /\ b_grp b' = b_grp b /\ b_prog b' = b_prog b.
Proof. repeat split; reflexivity. Qed.

Lemma balance_close_inv bl bl' : balance_close bl = Ok bl' -> bl' = bal_empty.
Proof. unfold balance_close. intros H. apply bind_ok in H as (u & _ & H). apply Ok_inj in H. auto. Qed.

(* the walk through withdraw_all, once: updates as a chain over the inputs, checks as the facts they tested *)
Lemma withdraw_all_raw b bl now b' bl' n :
  withdraw_all b bl now = Ok (b', bl', n) ->
  exists rem cur_a cur_l b2,
    get_asset_amount b (bl_a bl) = Ok cur_a /\ get_liability_amount b (bl_l bl) = Ok cur_l /\
    is_pos_tol cur_a = true /\ is_zero_tol cur_l = true /\
    b2 = set_b_tas (b_tas b - bl_a bl) (dec_lend (set_b_em_rem rem b)) /\ check_utilization_ratio b2 = Ok tt /\
    b' = set_b_ins (cur_a - cur_a / ONE * ONE + b_ins b) b2 /\ bl' = bal_empty /\
    n = cur_a / ONE * ONE / ONE /\ 0 <= n <= U64_MAX.
Proof.
  unfold withdraw_all. intros H.
  apply bind_ok in H as ([b0 bl0] & Hc & H). apply claim_emissions_eq in Hc as (rem & em & -> & ->).
  apply bind_ok in H as (cur_a & Hcur & H). apply bind_ok in H as (cur_l & Hcurl & H).
  apply bind_ok in H as (u1 & Hp & H). apply check_ok in Hp.
  apply bind_ok in H as (u2 & Hz & H). apply check_ok in Hz.
  apply bind_ok in H as (blc & Hclose & H). apply balance_close_inv in Hclose as ->.
  apply bind_ok in H as (nsh & Hnsh & H). apply chk_inv in Hnsh as [-> _].
  apply bind_ok in H as (b2 & Hb2 & H). apply change_asset_shares_inv in Hb2.
  apply bind_ok in H as ([] & Hut & H).
  apply bind_ok in H as (fl & Hfl & H). apply math_ok, cfloor_inv in Hfl as ->.
  apply bind_ok in H as (dust & Hdust & H). apply math_ok, csub_inv in Hdust as [-> _].
  apply bind_ok in H as (ins & Hins & H). apply math_ok, cadd_inv in Hins as [-> _].
  apply bind_ok in H as (n0 & Hn & H). apply math_ok, to_u64_inv in Hn as [-> Hnr].
  apply Ok_inj in H. injection H as <- <- <-.
  exists rem, cur_a, cur_l, b2. subst b2. repeat split; assumption || reflexivity || apply Hnr.
Qed.

Lemma withdraw_all_inv b bl now b' bl' n :
  wf_sv b -> wf_bal bl ->
  withdraw_all b bl now = Ok (b', bl', n) -> wall_facts b bl b' bl' n.
Proof.
  intros [Hasv Hlsv] [Hba Hbl] H.
  apply withdraw_all_raw in H as (rem & cur_a & cur_l & b2 & Ha & Hl & Hp & Hz & -> & Hut & -> & -> & -> & Hnr).
  apply (amount_inv (bl_a bl) (b_asv b)) in Ha as [-> _]; [| exact Hba | exact Hasv].
  apply (amount_inv (bl_l bl) (b_lsv b)) in Hl as [-> Hclr]; [| exact Hbl | lia].
  apply Z.ltb_lt in Hp. apply is_zero_tol_small in Hz; [| exact Hclr]. apply check_utilization_inv in Hut.
  rewrite (Z.div_mul _ ONE) in * by (pose proof ONE_pos; lia).
  constructor; try (repeat split; reflexivity); try assumption.
  rewrite <- frac_eq. apply Z.add_comm.
Qed.

Record rall_facts (b : bank) (bl : balance) (b' : bank) (bl' : balance) (n : Z) : Prop := {
  ra_charge : n * ONE = (let x := bl_l bl * b_lsv b / ONE in if x mod ONE =? 0 then x else x / ONE * ONE + ONE);
  ra_dust : b_ins b' = b_ins b + (n * ONE - bl_l bl * b_lsv b / ONE);
  ra_tas : b_tas b' = b_tas b;
  ra_tls : b_tls b' = b_tls b - bl_l bl;
  ra_sv : b_asv b' = b_asv b /\ b_lsv b' = b_lsv b;
  ra_fees : b_grp b' = b_grp b /\ b_prog b' = b_prog b;
  ra_closed : bl' = bal_empty;
  ra_pos : ZERO_AMOUNT_THRESHOLD < bl_l bl * b_lsv b / ONE;
  ra_asset_dust : bl_a bl * b_asv b / ONE < ZERO_AMOUNT_THRESHOLD;
  ra_range : 0 <= n <= U64_MAX
}.

Lemma repay_all_raw b bl now b' bl' n :
  repay_all b bl now = Ok (b', bl', n) ->
  exists rem cur_l cur_a ce,
    get_liability_amount b (bl_l bl) = Ok cur_l /\ get_asset_amount b (bl_a bl) = Ok cur_a /\
    is_pos_tol cur_l = true /\ is_zero_tol cur_a = true /\
    ce = (if cur_l mod ONE =? 0 then cur_l else cur_l / ONE * ONE + ONE) /\
    b' = set_b_ins (ce - cur_l + b_ins b) (set_b_tls (b_tls b - bl_l bl) (dec_bor (set_b_em_rem rem b))) /\
    bl' = bal_empty /\ n = ce / ONE /\ 0 <= n <= U64_MAX.
Proof.
  unfold repay_all. intros H.
  apply bind_ok in H as ([b0 bl0] & Hc & H). apply claim_emissions_eq in Hc as (rem & em & -> & ->).
  apply bind_ok in H as (cur_l & Hcurl & H). apply bind_ok in H as (cur_a & Hcur & H).
  apply bind_ok in H as (u1 & Hp & H). apply check_ok in Hp.
  apply bind_ok in H as (u2 & Hz & H). apply check_ok in Hz.
  apply bind_ok in H as (blc & Hclose & H). apply balance_close_inv in Hclose as ->.
  apply bind_ok in H as (nsh & Hnsh & H). apply chk_inv in Hnsh as [-> _].
  apply bind_ok in H as (b2 & Hb2 & H). apply change_liability_shares_inv in Hb2 as ->.
  apply bind_ok in H as (ce & Hce & H). apply math_ok, cceil_inv in Hce.
  apply bind_ok in H as (dust & Hdust & H). apply math_ok, csub_inv in Hdust as [-> _].
  apply bind_ok in H as (ins & Hins & H). apply math_ok, cadd_inv in Hins as [-> _].
  apply bind_ok in H as (n0 & Hn & H). apply math_ok, to_u64_inv in Hn as [-> Hnr].
  apply Ok_inj in H. injection H as <- <- <-.
  exists rem, cur_l, cur_a, ce. repeat split; assumption || reflexivity || apply Hnr.
Qed.

Lemma repay_all_inv b bl now b' bl' n :
  wf_sv b -> wf_bal bl ->
  repay_all b bl now = Ok (b', bl', n) -> rall_facts b bl b' bl' n.
Proof.
  intros [Hasv Hlsv] [Hba Hbl] H.
  apply repay_all_raw in H as (rem & cur_l & cur_a & ce & Hl & Ha & Hp & Hz & -> & -> & -> & -> & Hnr).
  apply (amount_inv (bl_l bl) (b_lsv b)) in Hl as [-> _]; [| exact Hbl | lia].
  apply (amount_inv (bl_a bl) (b_asv b)) in Ha as [-> Hcar]; [| exact Hba | exact Hasv].
  apply Z.ltb_lt in Hp. apply is_zero_tol_small in Hz; [| exact Hcar].
  constructor; cbv zeta; rewrite ?ceil_whole; try (repeat split; reflexivity); try assumption.
  apply Z.add_comm.
Qed.

Lemma close_balance_raw b bl now b' bl' :
  close_balance b bl now = Ok (b', bl') ->
  exists rem cur_l cur_a,
    get_liability_amount b (bl_l bl) = Ok cur_l /\ get_asset_amount b (bl_a bl) = Ok cur_a /\
    is_zero_tol cur_l = true /\ is_zero_tol cur_a = true /\ b' = set_b_em_rem rem b /\ bl' = bal_empty.
Proof.
  unfold close_balance. intros H.
  apply bind_ok in H as ([b0 bl0] & Hc & H). apply claim_emissions_eq in Hc as (rem & em & -> & ->).
  apply bind_ok in H as (cur_l & Hcurl & H). apply bind_ok in H as (cur_a & Hcur & H).
  apply bind_ok in H as (u1 & Hz1 & H). apply check_ok in Hz1.
  apply bind_ok in H as (u2 & Hz2 & H). apply check_ok in Hz2.
  apply bind_ok in H as (blc & Hclose & H). apply balance_close_inv in Hclose as ->.
  apply pair_ok in H as [<- <-]. exists rem, cur_l, cur_a. repeat split; assumption.
Qed.

Lemma close_balance_inv b bl now b' bl' :
  wf_sv b -> wf_bal bl -> close_balance b bl now = Ok (b', bl') ->
  bl' = bal_empty /\ b_tas b' = b_tas b /\ b_tls b' = b_tls b /\ b_asv b' = b_asv b /\ b_lsv b' = b_lsv b /\
  b_ins b' = b_ins b /\ b_grp b' = b_grp b /\ b_prog b' = b_prog b /\
  bl_a bl * b_asv b / ONE < ZERO_AMOUNT_THRESHOLD /\ bl_l bl * b_lsv b / ONE < ZERO_AMOUNT_THRESHOLD.
Proof.
  intros [Hasv Hlsv] [Hba Hbl] H. apply close_balance_raw in H as (rem & cur_l & cur_a & Hl & Ha & Zl & Za & -> & ->).
  apply (amount_inv (bl_l bl) (b_lsv b)) in Hl as [-> Hclr]; [| exact Hbl | lia].
  apply (amount_inv (bl_a bl) (b_asv b)) in Ha as [-> Hcar]; [| exact Hba | exact Hasv].
  apply is_zero_tol_small in Zl; [| exact Hclr]. apply is_zero_tol_small in Za; [| exact Hcar].
  repeat split; assumption.
Qed.

(* which fields a primitive can touch, whatever the values: the new bank and balance as update chains over the old *)
Lemma increase_balance_shape b bl now delta t b' bl' :
  increase_balance b bl now delta t = Ok (b', bl') ->
  exists rem em tas tls lc bc a l,
    b' = set_b_bor_cnt bc (set_b_lend_cnt lc (set_b_tls tls (set_b_tas tas (set_b_em_rem rem b)))) /\
    bl' = set_bl_l l (set_bl_a a (set_bl_last now (set_bl_em em bl))).
Proof.
  unfold increase_balance. intros H.
  apply bind_ok in H as ([b0 bl0] & Hc & H). apply claim_emissions_eq in Hc as (rem & em & -> & ->).
  do 5 apply bind_ok in H as (? & _ & H).
  apply bind_ok in H as (b1 & Hb1 & H). apply change_asset_shares_inv in Hb1 as ->.
  do 3 apply bind_ok in H as (? & _ & H).
  apply bind_ok in H as (b2 & Hb2 & H). apply change_liability_shares_inv in Hb2 as ->.
  apply pair_ok in H as [<- <-]. edestruct update_counts_eq as (lc & bc & ->).
  do 8 eexists. split; reflexivity.
Qed.

Lemma decrease_balance_shape b bl now delta t b' bl' :
  decrease_balance b bl now delta t = Ok (b', bl') ->
  exists rem em tas tls lc bc a l,
    b' = set_b_bor_cnt bc (set_b_lend_cnt lc (set_b_tls tls (set_b_tas tas (set_b_em_rem rem b)))) /\
    bl' = set_bl_l l (set_bl_a a (set_bl_last now (set_bl_em em bl))).
Proof.
  unfold decrease_balance. intros H.
  apply bind_ok in H as ([b0 bl0] & Hc & H). apply claim_emissions_eq in Hc as (rem & em & -> & ->).
  do 6 apply bind_ok in H as (? & _ & H).
  apply bind_ok in H as (b1 & Hb1 & H). apply change_asset_shares_inv in Hb1 as ->.
  do 2 apply bind_ok in H as (? & _ & H).
  apply bind_ok in H as (b2 & Hb2 & H). apply change_liability_shares_inv in Hb2 as ->.
  apply bind_ok in H as (? & _ & H).
  apply pair_ok in H as [<- <-]. edestruct update_counts_eq as (lc & bc & ->).
  do 8 eexists. split; reflexivity.
Qed.

Lemma withdraw_all_shape b bl now b' bl' n :
  withdraw_all b bl now = Ok (b', bl', n) ->
  exists rem tas ins, b' = set_b_ins ins (set_b_tas tas (dec_lend (set_b_em_rem rem b))) /\ bl' = bal_empty.
Proof.
  intros H. apply withdraw_all_raw in H as (rem & cur_a & _ & b2 & _ & _ & _ & _ & -> & _ & -> & -> & _).
  do 3 eexists. split; reflexivity.
Qed.

Lemma repay_all_shape b bl now b' bl' n :
  repay_all b bl now = Ok (b', bl', n) ->
  exists rem tls ins, b' = set_b_ins ins (set_b_tls tls (dec_bor (set_b_em_rem rem b))) /\ bl' = bal_empty.
Proof.
  intros H. apply repay_all_raw in H as (rem & cur_l & _ & ce & _ & _ & _ & _ & _ & -> & -> & _).
  do 3 eexists. split; reflexivity.
Qed.

Lemma close_balance_shape b bl now b' bl' :
  close_balance b bl now = Ok (b', bl') -> exists rem, b' = set_b_em_rem rem b /\ bl' = bal_empty.
Proof.
  intros H. apply close_balance_raw in H as (rem & _ & _ & _ & _ & _ & _ & -> & ->). eexists. split; reflexivity.
Qed.

(* the asset share value falls to 0, which kills the bank, or to what is left of the deposits per share *)
Lemma socialize_loss_raw b loss b' kill : 0 <= b_asv b -> 0 <= b_tas b -> socialize_loss b loss = Ok (b', kill) ->
  (b_tas b * b_asv b / ONE <= loss /\ b' = set_b_asv 0 b /\ kill = true)
  \/ exists nsv, loss < b_tas b * b_asv b / ONE /\ 0 < b_tas b /\
       nsv = (b_tas b * b_asv b / ONE - loss) * ONE / b_tas b /\ 0 <= nsv /\ b' = set_b_asv nsv b /\ kill = (nsv =? 0).
Proof.
  intros Ha Ht H. unfold socialize_loss in H. bind_inv H as total Htot. apply math_ok, cmul_inv in Htot as [-> _].
  destruct (Z.leb_spec (b_tas b * b_asv b / ONE) loss) as [E|E].
  - apply pair_ok in H as [<- <-]. left. auto.
  - bind_inv H as d Hd. apply usub_inv in Hd as [-> _]. bind_inv H as nsv Hn. apply math_ok in Hn.
    assert (Htp : 0 < b_tas b).
    { destruct (Z.eq_dec (b_tas b) 0) as [E0|]; [|lia]. unfold cdiv in Hn. rewrite E0 in Hn. discriminate. }
    apply cdiv_inv_nonneg in Hn as [Hn Hr]; [|lia|lia]. apply pair_ok in H as [<- <-].
    right. exists nsv. repeat split; auto; lia.
Qed.
