(* FrameLemmas.v — what the accounting primitives never touch: the bank's static configuration
   (interest-rate config, flags, operational state, asset tag, decimals, limits), the group / program fee
   buckets and the accrual time stamp. *)
Require Import Base Constants Fixed Curve Bank.
Require Import FixedLemmas BankLemmas.
Local Open Scope Z_scope.

Definition bank_static (b b' : bank) : Prop :=
  b_ir b' = b_ir b /\ b_flags b' = b_flags b /\ b_op_state b' = b_op_state b /\
  b_asset_tag b' = b_asset_tag b /\ b_decimals b' = b_decimals b /\
  b_dep_limit b' = b_dep_limit b /\ b_bor_limit b' = b_bor_limit b.
Definition gp_same (b b' : bank) : Prop := b_grp b' = b_grp b /\ b_prog b' = b_prog b.
Definition lu_same (b b' : bank) : Prop := b_last_update b' = b_last_update b.

Definition prim_frame (b b' : bank) : Prop := bank_static b b' /\ gp_same b b' /\ lu_same b b'.

Lemma bank_static_refl b : bank_static b b.
Proof. unfold bank_static. repeat split; reflexivity. Qed.
Lemma bank_static_trans a b c : bank_static a b -> bank_static b c -> bank_static a c.
Proof. unfold bank_static. intros (?&?&?&?&?&?&?) (?&?&?&?&?&?&?). repeat split; congruence. Qed.
Lemma gp_same_refl b : gp_same b b.
Proof. split; reflexivity. Qed.
Lemma lu_same_refl b : lu_same b b.
Proof. reflexivity. Qed.

Ltac one_field := repeat split; reflexivity.
Lemma frame_set_ins v b : prim_frame b (set_b_ins v b). Proof. one_field. Qed.
Lemma frame_set_asv v b : prim_frame b (set_b_asv v b). Proof. one_field. Qed.
Lemma static_set_grp v b : bank_static b (set_b_grp v b). Proof. one_field. Qed.
Lemma static_set_prog v b : bank_static b (set_b_prog v b). Proof. one_field. Qed.
Lemma gp_set_last_update v b : gp_same b (set_b_last_update v b). Proof. one_field. Qed.
Lemma lu_set_grp v b : lu_same b (set_b_grp v b). Proof. reflexivity. Qed.
Lemma lu_set_prog v b : lu_same b (set_b_prog v b). Proof. reflexivity. Qed.

(* the primitives write the emissions remainder, the totals, the position counters and the insurance bucket *)
Lemma frame_increase b bl now delta t b' bl' : increase_balance b bl now delta t = Ok (b', bl') -> prim_frame b b'.
Proof. intros H. apply increase_balance_shape in H as (rem & em & tas & tls & lc & bc & a & l & -> & _). one_field. Qed.
Lemma frame_decrease b bl now delta t b' bl' : decrease_balance b bl now delta t = Ok (b', bl') -> prim_frame b b'.
Proof. intros H. apply decrease_balance_shape in H as (rem & em & tas & tls & lc & bc & a & l & -> & _). one_field. Qed.
Lemma frame_withdraw_all b bl now b' bl' n : withdraw_all b bl now = Ok (b', bl', n) -> prim_frame b b'.
Proof. intros H. apply withdraw_all_shape in H as (rem & tas & ins & -> & _). one_field. Qed.
Lemma frame_repay_all b bl now b' bl' n : repay_all b bl now = Ok (b', bl', n) -> prim_frame b b'.
Proof. intros H. apply repay_all_shape in H as (rem & tls & ins & -> & _). one_field. Qed.
Lemma frame_close_balance b bl now b' bl' : close_balance b bl now = Ok (b', bl') -> prim_frame b b'.
Proof. intros H. apply close_balance_shape in H as (rem & -> & _). one_field. Qed.
Lemma frame_socialize b loss b' kill : socialize_loss b loss = Ok (b', kill) -> prim_frame b b'.
Proof.
  unfold socialize_loss. intros H. apply bind_ok in H as (total & _ & H).
  destruct (total <=? loss).
  - apply Ok_inj, pair_equal_spec in H as [<- _]. apply frame_set_asv.
  - apply bind_ok in H as (d & _ & H). apply bind_ok in H as (nsv & _ & H).
    apply Ok_inj, pair_equal_spec in H as [<- _]. apply frame_set_asv.
Qed.

Lemma gp_socialize b loss b' kill : socialize_loss b loss = Ok (b', kill) -> gp_same b b'.
Proof. intros H. apply frame_socialize in H. apply H. Qed.
Lemma lu_socialize b loss b' kill : socialize_loss b loss = Ok (b', kill) -> lu_same b b'.
Proof. intros H. apply frame_socialize in H. apply H. Qed.
