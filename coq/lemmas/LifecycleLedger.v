(* LifecycleLedger.v — C02 for account transfer and account close (model AcctLifecycle.v): a transfer keeps the sum of
   the positions of every bank over all accounts; closing an account removes only positions the code treats as
   empty (both sides below one share-unit). *)
Require Import Base Constants TxConstants Fixed Curve Bank BankOps AcctLifecycle.
Require Import FixedLemmas HandlerLemmas LedgerLemmas AcctLifecycleLemmas.
From Coq Require Import ZifyBool.
Local Open Scope Z_scope.

Definition osum (f : balance -> Z) (accts : list (option macct)) : Z :=
  fold_right (fun o acc => (match o with Some a => lsum f (ma_la a) | None => 0 end) + acc) 0 accts.

Definition oval (f : balance -> Z) (o : option macct) : Z := match o with Some a => lsum f (ma_la a) | None => 0 end.

Lemma osum_set_nth f accts n old v : nth_error accts n = Some old ->
  osum f (set_nth n v accts) = osum f accts - oval f old + oval f v.
Proof.
  revert n; induction accts as [|x r IH]; intros [|n] H; cbn [nth_error] in H; try discriminate.
  - inversion H; subst. unfold osum, oval. cbn [set_nth fold_right]. lia.
  - specialize (IH _ H). unfold osum in *. cbn [set_nth fold_right]. rewrite IH. lia.
Qed.

Lemma lsum_zeroed f : f (mkBal false 0 0 0 0 0 0) = 0 -> lsum f la_zeroed = 0.
Proof. intros H. unfold la_zeroed. cbn [repeat lsum]. rewrite !H. reflexivity. Qed.

(* the source's positions move to the destination slot, which held none; an inactive slot counts for no bank *)
Lemma transfer_keeps_sum f w old new signer na fw w' : f (mkBal false 0 0 0 0 0 0) = 0 ->
  h_transfer w old new signer na fw = Ok w' -> osum f (lw_accts w') = osum f (lw_accts w).
Proof.
  intros Hf H. apply h_transfer_inv in H as (A & ts & HA & En & _ & _ & _ & E).
  unfold get_macct in HA. destruct (nth_error (lw_accts w) old) as [[a0|]|] eqn:Eo; try discriminate.
  apply Ok_inj in HA. subst a0.
  assert (Hne : old <> new) by congruence.
  rewrite E. erewrite osum_set_nth; [|rewrite nth_set_nth_other by exact Hne; exact En].
  rewrite (osum_set_nth _ _ _ _ _ Eo). unfold oval. cbn [ma_la]. rewrite (lsum_zeroed f Hf). lia.
Qed.

(* transfer_to_new_account keeps, for every bank key, the sum of recorded asset and liability shares *)
Theorem transfer_keeps_position_sums w old new signer na fw w' k :
  h_transfer w old new signer na fw = Ok w' ->
  osum (ca k) (lw_accts w') = osum (ca k) (lw_accts w) /\ osum (cl k) (lw_accts w') = osum (cl k) (lw_accts w).
Proof. intros H. split; exact (transfer_keeps_sum _ _ _ _ _ _ _ _ eq_refl H). Qed.

(* the PDA variant of the transfer instruction *)
Lemma keep_last_update_sums f w0 w old : osum f (lw_accts (keep_last_update w0 w old)) = osum f (lw_accts w).
Proof.
  unfold keep_last_update. destruct (get_macct w0 old) as [A0|e0]; [|reflexivity].
  destruct (get_macct w old) as [A|e] eqn:EA; [|reflexivity].
  unfold get_macct in EA. destruct (nth_error (lw_accts w) old) as [[a0|]|] eqn:Eo; try discriminate.
  apply Ok_inj in EA. subst a0.
  unfold set_macct. cbn [lw_accts]. rewrite (osum_set_nth _ _ _ _ _ Eo). unfold oval. cbn [ma_la]. lia.
Qed.

Theorem transfer_pda_keeps_position_sums w old new signer na fw w' k :
  h_transfer_pda w old new signer na fw = Ok w' ->
  osum (ca k) (lw_accts w') = osum (ca k) (lw_accts w) /\ osum (cl k) (lw_accts w') = osum (cl k) (lw_accts w).
Proof.
  unfold h_transfer_pda. intros H. apply bind_ok in H as (w1 & H1 & H). apply Ok_inj in H. subst w'.
  rewrite !keep_last_update_sums. exact (transfer_keeps_position_sums _ _ _ _ _ _ _ k H1).
Qed.

Theorem close_removes_only_empty_positions w a signer w' :
  h_close w a signer = Ok w' ->
  exists A, get_macct w a = Ok A /\
    Forall (fun bl => bl_a bl < EMPTY_BALANCE_THRESHOLD /\ bl_l bl < EMPTY_BALANCE_THRESHOLD) (ma_la A) /\
    lw_accts w' = set_nth a None (lw_accts w).
Proof.
  intros H. apply close_iff in H as (A & HA & (_ & _ & _ & _ & _ & He) & ->).
  exists A. split; [exact HA|]. split; [exact He | reflexivity].
Qed.
