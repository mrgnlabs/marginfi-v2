(* HandlerLemmas.v — plumbing for the instruction-handler model (Handlers.v): the cells of a list, sort_balances, the
   bank and account cells of a world, token transfers and which vaults they can touch, the cache refresh; then fee
   collection (C19) and the close_bank probe. *)
Require Import Base Constants Fixed Curve Bank BankOps Risk TransferFee Handlers FixedLemmas BankLemmas.
From Coq Require Import ZifyBool.
Local Open Scope Z_scope.

Lemma set_nth_len {A} (l : list A) n v : length (set_nth n v l) = length l.
Proof. revert n; induction l as [|a l IH]; intros [|n]; cbn; auto. Qed.
Lemma nth_set_nth_same {A} (l : list A) n v x : nth_error l n = Some x -> nth_error (set_nth n v l) n = Some v.
Proof. revert n; induction l as [|a l IH]; intros [|n] H; cbn in *; try discriminate; auto. Qed.
Lemma nth_set_nth_other {A} (l : list A) n k v : n <> k -> nth_error (set_nth n v l) k = nth_error l k.
Proof.
  revert n k; induction l as [|a l IH]; intros [|n] [|k] H; cbn; try reflexivity; try congruence.
  apply IH. congruence.
Qed.

Lemma set_nth_set_nth {A} (l : list A) n x y : set_nth n x (set_nth n y l) = set_nth n x l.
Proof. revert n; induction l as [|a l IH]; intros [|n]; cbn; try reflexivity. f_equal. apply IH. Qed.
Lemma set_nth_comm {A} (l : list A) n m x y : n <> m -> set_nth n x (set_nth m y l) = set_nth m y (set_nth n x l).
Proof.
  revert n m; induction l as [|a l IH]; intros [|n] [|m] H; cbn; try reflexivity; try congruence.
  f_equal. apply IH. congruence.
Qed.
Lemma set_nth_same_id {A} (l : list A) n x : nth_error l n = Some x -> set_nth n x l = l.
Proof.
  revert n; induction l as [|a l IH]; intros [|n] H; cbn in *; try discriminate; [congruence|].
  f_equal. apply IH. exact H.
Qed.

Lemma nth_error_set_nth_In {A} (l : list A) i v x : nth_error l i = Some x -> In v (set_nth i v l).
Proof.
  revert i; induction l as [|a r IH]; intros [|i] H; cbn in *; try discriminate; [left; reflexivity|].
  right. eapply IH; eauto.
Qed.
Lemma set_nth_In_other {A} (l : list A) i j v x : i <> j -> nth_error l j = Some x -> In x (set_nth i v l).
Proof.
  intros Hne H. apply (nth_error_In _ j). rewrite nth_set_nth_other by assumption. exact H.
Qed.

Lemma map_set_nth {A B} (f : A -> B) l n x : map f (set_nth n x l) = set_nth n (f x) (map f l).
Proof. revert n; induction l as [|a l IH]; intros [|n]; cbn; try reflexivity. f_equal. apply IH. Qed.
Lemma map_set_nth_same {A B} (f : A -> B) l n v x :
  nth_error l n = Some x -> f v = f x -> map f (set_nth n v l) = map f l.
Proof. intros H E. rewrite map_set_nth, E. apply set_nth_same_id. rewrite nth_error_map, H. reflexivity. Qed.

Lemma Forall_set_nth {A} (P : A -> Prop) l n v : Forall P l -> P v -> Forall P (set_nth n v l).
Proof.
  revert n; induction l as [|a l IH]; intros n Hl Hv; [destruct n; constructor|].
  inversion Hl; subst. destruct n; cbn; constructor; auto.
Qed.
Lemma Forall_nth_error {A} (P : A -> Prop) l n x : Forall P l -> nth_error l n = Some x -> P x.
Proof. intros H E. rewrite Forall_forall in H. apply H. eapply nth_error_In; eauto. Qed.
Lemma In_set_nth {A} (l : list A) i x y : In y (set_nth i x l) -> y = x \/ In y l.
Proof.
  revert i; induction l as [|a l IH]; intros [|i] H; cbn [set_nth In] in *; try tauto.
  - destruct H as [H|H]; [left; congruence|tauto].
  - destruct H as [H|H]; [tauto|]. destruct (IH _ H); tauto.
Qed.

Lemma nth_res_ok {A} n (l : list A) x : nth_res n l = Ok x -> nth_error l n = Some x.
Proof. unfold nth_res. destruct (nth_error l n); intros H; [apply Ok_inj in H; subst; auto | discriminate]. Qed.
Lemma nth_res_set_same {A} (l : list A) n x y : nth_res n l = Ok y -> nth_res n (set_nth n x l) = Ok x.
Proof. intros H. apply nth_res_ok in H. unfold nth_res. rewrite (nth_set_nth_same _ _ _ _ H). reflexivity. Qed.
Lemma nth_res_set_other {A} (l : list A) n m x : n <> m -> nth_res m (set_nth n x l) = nth_res m l.
Proof. intros H. unfold nth_res. rewrite nth_set_nth_other by assumption. reflexivity. Qed.

(* two different cells of a list after both were overwritten *)
Lemma set_two {A} (l : list A) i j x y xi xj :
  i <> j -> nth_res i l = Ok xi -> nth_res j l = Ok xj ->
  nth_res i (set_nth j y (set_nth i x l)) = Ok x /\ nth_res j (set_nth j y (set_nth i x l)) = Ok y.
Proof.
  intros Hne Hi Hj. split.
  - rewrite nth_res_set_other by congruence. exact (nth_res_set_same _ _ _ _ Hi).
  - apply (nth_res_set_same _ _ _ xj). rewrite nth_res_set_other by exact Hne. exact Hj.
Qed.
Lemma nth_res_map {A B} (f : A -> B) l n x : nth_res n l = Ok x -> nth_res n (map f l) = Ok (f x).
Proof. intros H. apply nth_res_ok in H. unfold nth_res. rewrite nth_error_map, H. reflexivity. Qed.
Lemma nth_res_Forall {A} (P : A -> Prop) n l x : nth_res n l = Ok x -> Forall P l -> P x.
Proof. intros H Hf. apply nth_res_ok in H. eapply Forall_nth_error; eauto. Qed.

Lemma In_insert_desc x y l : In x (insert_desc y l) <-> x = y \/ In x l.
Proof.
  induction l as [|z r IH]; cbn [insert_desc]; [cbn; intuition|].
  destruct (bl_bank z <? bl_bank y); cbn [In]; [intuition|]. rewrite IH. intuition.
Qed.
Lemma In_sort x l : In x (sort_balances l) <-> In x l.
Proof.
  unfold sort_balances. induction l as [|y r IH]; cbn [fold_right]; [reflexivity|].
  rewrite In_insert_desc, IH. cbn [In]. intuition.
Qed.
Lemma Forall_sort (P : balance -> Prop) l : Forall P l -> Forall P (sort_balances l).
Proof. rewrite !Forall_forall. intros H x Hx. apply H, In_sort, Hx. Qed.

Lemma put_hbank_get w b hb hb0 : nth_bank w b = Ok hb0 -> nth_bank (put_hbank w b hb) b = Ok hb.
Proof. apply nth_res_set_same. Qed.
Lemma nth_bank_put_other w b hb k : b <> k -> nth_bank (put_hbank w b hb) k = nth_bank w k.
Proof. apply nth_res_set_other. Qed.
Lemma nth_bank_put_hacct w a x b : nth_bank (put_hacct w a x) b = nth_bank w b.
Proof. reflexivity. Qed.
Lemma put_hacct_get w a x x0 : nth_acct w a = Ok x0 -> nth_acct (put_hacct w a x) a = Ok x.
Proof. apply nth_res_set_same. Qed.
Lemma nth_acct_put_other w a x k : a <> k -> nth_acct (put_hacct w a x) k = nth_acct w k.
Proof. apply nth_res_set_other. Qed.
Lemma nth_acct_put_hbank w b hb a : nth_acct (put_hbank w b hb) a = nth_acct w a.
Proof. reflexivity. Qed.

Lemma nth_bank_of_eq w w' b hb hb0 : hw_banks w' = set_nth b hb (hw_banks w) -> nth_bank w b = Ok hb0 -> nth_bank w' b = Ok hb.
Proof. unfold nth_bank. intros ->. apply nth_res_set_same. Qed.
Lemma nth_bank_eq_other w w' b hb' k : hw_banks w' = set_nth b hb' (hw_banks w) -> b <> k -> nth_bank w' k = nth_bank w k.
Proof. unfold nth_bank. intros ->. apply nth_res_set_other. Qed.

Lemma put_utok_frame w a b v :
  exists u, put_utok w a b v = mkHW (hw_banks w) (hw_accts w) (hw_now w) (hw_pf w) u (hw_risk_admin_signs w).
Proof. unfold put_utok. destruct (nth_error (hw_utok w) a); [eexists; reflexivity|exists (hw_utok w); destruct w; reflexivity]. Qed.

Lemma xfer_in_inv w a b n w' hb :
  xfer_in w a b n = Ok w' -> nth_bank w b = Ok hb ->
  exists f u, tfee hb n = Ok f /\
    w' = mkHW (set_nth b (set_hb_vault (hb_vault hb + n - f) hb) (hw_banks w)) (hw_accts w) (hw_now w) (hw_pf w) u (hw_risk_admin_signs w).
Proof.
  unfold xfer_in. intros H Hb. rewrite Hb in H. cbn [bind] in H.
  bind_inv H as u _. bind_inv H as c _. bind_inv H as f Hf.
  apply Ok_inj in H. subst w'. destruct (put_utok_frame (put_hbank w b (set_hb_vault (hb_vault hb + n - f) hb)) a b (u - n)) as (u' & ->).
  exists f, u'. split; [exact Hf|reflexivity].
Qed.
Lemma xfer_out_inv w a b n w' hb :
  xfer_out w a b n = Ok w' -> nth_bank w b = Ok hb ->
  n <= hb_vault hb /\ exists u,
    w' = mkHW (set_nth b (set_hb_vault (hb_vault hb - n) hb) (hw_banks w)) (hw_accts w) (hw_now w) (hw_pf w) u (hw_risk_admin_signs w).
Proof.
  unfold xfer_out. intros H Hb. rewrite Hb in H. cbn [bind] in H.
  bind_inv H as u _. bind_inv H as c Hc. bind_inv H as f _.
  apply Ok_inj in H. subst w'. apply check_ok in Hc. split; [lia|].
  destruct (put_utok_frame (put_hbank w b (set_hb_vault (hb_vault hb - n) hb)) a b (u + n - f)) as (u' & ->).
  exists u'. reflexivity.
Qed.

Lemma update_bank_cache_core b pf now b' :
  update_bank_cache b pf now = Ok b' -> b' = b \/ b' = set_b_last_update now b.
Proof.
  unfold update_bank_cache. intros H.
  bind_inv H as ta _. bind_inv H as tl _.
  destruct ((ta =? 0) || (tl =? 0)); [apply Ok_inj in H; auto|].
  bind_inv H as ur _. bind_inv H as r _. apply Ok_inj in H. auto.
Qed.

Definition side_vaults (w : hworld) : list (Z * Z * Z) :=
  map (fun hb => (hb_insv hb, hb_feev hb, hb_feeata hb)) (hw_banks w).

Lemma sv_put_hacct w a x : side_vaults (put_hacct w a x) = side_vaults w.
Proof. reflexivity. Qed.

Lemma xfer_in_sv w a b n w' : xfer_in w a b n = Ok w' -> side_vaults w' = side_vaults w.
Proof.
  intros H. assert (Hb : exists hb, nth_bank w b = Ok hb).
  { unfold xfer_in in H. apply bind_ok in H as (hb & Hb & _). eauto. }
  destruct Hb as (hb & Hb). destruct (xfer_in_inv _ _ _ _ _ _ H Hb) as (f & u & _ & ->).
  apply (map_set_nth_same _ _ _ _ hb); [apply nth_res_ok; exact Hb|reflexivity].
Qed.
Lemma xfer_out_sv w a b n w' : xfer_out w a b n = Ok w' -> side_vaults w' = side_vaults w.
Proof.
  intros H. assert (Hb : exists hb, nth_bank w b = Ok hb).
  { unfold xfer_out in H. apply bind_ok in H as (hb & Hb & _). eauto. }
  destruct Hb as (hb & Hb). destruct (xfer_out_inv _ _ _ _ _ _ H Hb) as (_ & u & ->).
  apply (map_set_nth_same _ _ _ _ hb); [apply nth_res_ok; exact Hb|reflexivity].
Qed.

Lemma xfer_in_bank w a b n w' hb : xfer_in w a b n = Ok w' -> nth_bank w b = Ok hb ->
  exists hb', nth_bank w' b = Ok hb' /\ hb_b hb' = hb_b hb /\
              (hb_insv hb', hb_feev hb', hb_feeata hb') = (hb_insv hb, hb_feev hb, hb_feeata hb).
Proof.
  intros H Hb. destruct (xfer_in_inv _ _ _ _ _ _ H Hb) as (f & u & _ & ->).
  eexists. split; [eapply nth_res_set_same; exact Hb|]. split; reflexivity.
Qed.
Lemma xfer_out_bank w a b n w' hb : xfer_out w a b n = Ok w' -> nth_bank w b = Ok hb ->
  exists hb', nth_bank w' b = Ok hb' /\ hb_b hb' = hb_b hb /\
              (hb_insv hb', hb_feev hb', hb_feeata hb') = (hb_insv hb, hb_feev hb, hb_feeata hb).
Proof.
  intros H Hb. destruct (xfer_out_inv _ _ _ _ _ _ H Hb) as (_ & u & ->).
  eexists. split; [eapply nth_res_set_same; exact Hb|]. split; reflexivity.
Qed.

Lemma fint_whole x : fint x / ONE * ONE = fint x.
Proof. unfold fint, ffloor_raw. pose proof ONE_pos. rewrite Z.div_mul by lia. reflexivity. Qed.

(* everything a successful collection did: mi, mg, mp whole tokens leave the insurance, group and program buckets and the
   liquidity vault, and arrive, less transfer fees, in the insurance vault, the fee vault and the fee ATA *)
Lemma collect_fees_spec w b w' :
  h_collect_fees w b = Ok w' ->
  exists hb fi fg fp,
    let bk := hb_b hb in let avail0 := of_int (hb_vault hb) in
    let mi := fint (fmin (b_ins bk) avail0) in
    let mg := fint (fmin (b_grp bk) (avail0 - mi)) in
    let mp := fint (fmin (b_prog bk) (avail0 - mi - mg)) in
    nth_bank w b = Ok hb /\
    tfee hb (mi / ONE) = Ok fi /\ tfee hb (mg / ONE) = Ok fg /\ tfee hb (mp / ONE) = Ok fp /\
    I128_MIN <= b_grp bk - mg /\ I128_MIN <= b_prog bk - mp /\
    w' = put_hbank w b (set_hb_feeata (hb_feeata hb + mp / ONE - fp) (set_hb_insv (hb_insv hb + mi / ONE - fi)
           (set_hb_feev (hb_feev hb + mg / ONE - fg) (set_hb_vault (hb_vault hb - mg / ONE - mi / ONE - mp / ONE)
           (set_hb_b (set_b_prog (b_prog bk - mp) (set_b_grp (b_grp bk - mg) (set_b_ins (b_ins bk - mi) bk))) hb))))).
Proof.
  intros H. unfold h_collect_fees in H. bind_inv H as hb Hb.
  bind_inv H as ins_new H1. apply math_ok, csub_inv in H1 as [-> _].
  bind_inv H as avail1 H2. apply math_ok, csub_inv in H2 as [-> _].
  bind_inv H as grp_new H3. apply math_ok, csub_inv in H3 as [-> [G _]].
  bind_inv H as avail2 H4. apply math_ok, csub_inv in H4 as [-> _].
  bind_inv H as u1 _.
  bind_inv H as grp_n H5. apply math_ok, to_u64_inv in H5 as [-> _].
  bind_inv H as ins_n H6. apply math_ok, to_u64_inv in H6 as [-> _].
  bind_inv H as prog_new H7. apply math_ok, csub_inv in H7 as [-> [P _]].
  bind_inv H as avail3 H8. bind_inv H as u2 _.
  bind_inv H as prog_n H9. apply math_ok, to_u64_inv in H9 as [-> _].
  bind_inv H as u3 _. bind_inv H as f1 F1.
  bind_inv H as u4 _. bind_inv H as f2 F2.
  bind_inv H as u5 _. bind_inv H as f3 F3.
  apply Ok_inj in H. exists hb, f2, f1, f3. cbv zeta. repeat split; try assumption. symmetry. exact H.
Qed.

Lemma collect_fees_inv w b w' hb :
  nth_bank w b = Ok hb -> h_collect_fees w b = Ok w' ->
  exists hb', nth_bank w' b = Ok hb' /\
  let bk := hb_b hb in let bk' := hb_b hb' in
  let avail0 := of_int (hb_vault hb) in
  let mi := fint (fmin (b_ins bk) avail0) in
  let mg := fint (fmin (b_grp bk) (avail0 - mi)) in
  let mp := fint (fmin (b_prog bk) (avail0 - mi - mg)) in
  b_ins bk' = b_ins bk - mi /\ b_grp bk' = b_grp bk - mg /\ b_prog bk' = b_prog bk - mp /\
  hb_vault hb' * ONE = hb_vault hb * ONE - (mi + mg + mp) /\
  (exists fi fg fp, tfee hb (mi / ONE) = Ok fi /\ tfee hb (mg / ONE) = Ok fg /\ tfee hb (mp / ONE) = Ok fp /\
     hb_insv hb' = hb_insv hb + mi / ONE - fi /\
     hb_feev hb' = hb_feev hb + mg / ONE - fg /\
     hb_feeata hb' = hb_feeata hb + mp / ONE - fp) /\
  b_tas bk' = b_tas bk /\ b_tls bk' = b_tls bk /\ b_asv bk' = b_asv bk /\ b_lsv bk' = b_lsv bk.
Proof.
  intros Hb H. destruct (collect_fees_spec _ _ _ H) as (hb0 & fi & fg & fp & S). cbv zeta in S.
  destruct S as (Hb0 & Fi & Fg & Fp & _ & _ & ->). rewrite Hb in Hb0. apply Ok_inj in Hb0. subst hb0.
  eexists. split; [eapply put_hbank_get; exact Hb|]. cbv zeta.
  cbn [hb_b hb_vault hb_insv hb_feev hb_feeata set_hb_b set_hb_vault set_hb_insv set_hb_feev set_hb_feeata
       b_ins b_grp b_prog b_tas b_tls b_asv b_lsv set_b_ins set_b_grp set_b_prog].
  set (mi := fint (fmin (b_ins (hb_b hb)) (of_int (hb_vault hb)))) in *.
  set (mg := fint (fmin (b_grp (hb_b hb)) (of_int (hb_vault hb) - mi))) in *.
  set (mp := fint (fmin (b_prog (hb_b hb)) (of_int (hb_vault hb) - mi - mg))) in *.
  pose proof (fint_whole (fmin (b_ins (hb_b hb)) (of_int (hb_vault hb)))) as Ei. fold mi in Ei.
  pose proof (fint_whole (fmin (b_grp (hb_b hb)) (of_int (hb_vault hb) - mi))) as Eg. fold mg in Eg.
  pose proof (fint_whole (fmin (b_prog (hb_b hb)) (of_int (hb_vault hb) - mi - mg))) as Ep. fold mp in Ep.
  repeat split; try reflexivity; try lia. exists fi, fg, fp. repeat split; assumption || reflexivity.
Qed.

Lemma close_probe_inv w b :
  h_close_bank_probe w b = Ok tt ->
  exists hb, nth_bank w b = Ok hb /\
    get_flag (b_flags (hb_b hb)) CLOSE_ENABLED_FLAG = true /\
    b_lend_cnt (hb_b hb) = 0 /\ b_bor_cnt (hb_b hb) = 0 /\
    is_zero_tol (b_tas (hb_b hb)) = true /\ is_zero_tol (b_tls (hb_b hb)) = true /\
    is_zero_tol (b_em_rem (hb_b hb)) = true.
Proof.
  unfold h_close_bank_probe. intros H.
  apply bind_ok in H as (hb & Hhb & H). apply bind_ok in H as (u1 & H1 & H). apply bind_ok in H as (u2 & H2 & H).
  apply bind_ok in H as (u3 & H3 & H). apply check_ok in H1, H2, H3, H.
  apply Bool.andb_true_iff in H2 as [C1 C2]. apply Z.eqb_eq in C1, C2. apply Bool.andb_true_iff in H3 as [T1 T2].
  exists hb. repeat split; assumption.
Qed.
