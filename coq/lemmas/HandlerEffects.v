(* HandlerEffects.v — inversion of the instruction-handler models: what a SUCCESSFUL handler did,
   expressed as the chain of primitives it ran and the final bank / account entries (eff1 / effb), one lemma per
   handler; liquidation for any position loader (liquidate_run); the receiver's repayment of Deleverage.v, of which
   the ordinary one is an instance.  Every area that reasons about successful handlers reads them through these. *)
Require Import Base Constants Fixed Curve Bank BankOps Risk TransferFee Handlers Deleverage.
Require Import FixedLemmas BankLemmas CurveLemmas HandlerLemmas RiskValueLemmas.
From Coq Require Import ZifyBool.
Local Open Scope Z_scope.

(* the final bank entry: accounting state bk, liquidity vault V, everything else as in hb *)
Definition mk_hb (bk : bank) (V : Z) (hb : hbank) : hbank := set_hb_b bk (set_hb_vault V hb).

Lemma nth_acct_of_eq w w' a ac ac0 : hw_accts w' = set_nth a ac (hw_accts w) -> nth_acct w a = Ok ac0 -> nth_acct w' a = Ok ac.
Proof. unfold nth_acct. intros ->. apply nth_res_set_same. Qed.

(* the frame every single-bank single-account handler leaves *)
Definition eff1 (w w' : hworld) (a b : nat) (hb hb' : hbank) (ac ac' : hacct) : Prop :=
  nth_bank w b = Ok hb /\ nth_acct w a = Ok ac /\
  hw_banks w' = set_nth b hb' (hw_banks w) /\ hw_accts w' = set_nth a ac' (hw_accts w) /\
  hw_now w' = hw_now w /\ hw_pf w' = hw_pf w /\ hw_risk_admin_signs w' = hw_risk_admin_signs w.

(* While such a handler runs, the world is the initial one with bank cell b, account cell a and the user balances
   replaced: every write and transfer of the handler keeps this form, every read of the two cells returns what was put. *)
Definition upd (w : hworld) (b : nat) (hb : hbank) (a : nat) (ac : hacct) (u : list (list Z)) : hworld :=
  mkHW (set_nth b hb (hw_banks w)) (set_nth a ac (hw_accts w)) (hw_now w) (hw_pf w) u (hw_risk_admin_signs w).

Lemma put_cells w b hb a ac : put_hacct (put_hbank w b hb) a ac = upd w b hb a ac (hw_utok w).
Proof. reflexivity. Qed.
Lemma put_hbank_upd w b hb a ac u hb' : put_hbank (upd w b hb a ac u) b hb' = upd w b hb' a ac u.
Proof. unfold upd, put_hbank. cbn [hw_banks hw_accts hw_now hw_pf hw_utok hw_risk_admin_signs]. rewrite set_nth_set_nth. reflexivity. Qed.
Lemma put_cells_upd w b hb a ac u hb' ac' : put_hacct (put_hbank (upd w b hb a ac u) b hb') a ac' = upd w b hb' a ac' u.
Proof. rewrite put_hbank_upd. unfold upd, put_hacct. cbn [hw_banks hw_accts hw_now hw_pf hw_utok hw_risk_admin_signs]. rewrite set_nth_set_nth. reflexivity. Qed.
Lemma nth_bank_upd w b hb a ac u hb0 : nth_bank w b = Ok hb0 -> nth_bank (upd w b hb a ac u) b = Ok hb.
Proof. apply nth_res_set_same. Qed.
Lemma nth_acct_upd w b hb a ac u ac0 : nth_acct w a = Ok ac0 -> nth_acct (upd w b hb a ac u) a = Ok ac.
Proof. apply nth_res_set_same. Qed.
Lemma xfer_in_upd w b hb a ac u a' n w' hb0 :
  nth_bank w b = Ok hb0 -> xfer_in (upd w b hb a ac u) a' b n = Ok w' ->
  exists f u', tfee hb n = Ok f /\ w' = upd w b (set_hb_vault (hb_vault hb + n - f) hb) a ac u'.
Proof.
  intros Hb H. destruct (xfer_in_inv _ _ _ _ _ _ H (nth_bank_upd _ _ _ _ _ _ _ Hb)) as (f & u' & Hf & ->).
  exists f, u'. split; [exact Hf|]. unfold upd. cbn [hw_banks hw_accts hw_now hw_pf hw_risk_admin_signs]. rewrite set_nth_set_nth. reflexivity.
Qed.
Lemma xfer_out_upd w b hb a ac u a' n w' hb0 :
  nth_bank w b = Ok hb0 -> xfer_out (upd w b hb a ac u) a' b n = Ok w' ->
  n <= hb_vault hb /\ exists u', w' = upd w b (set_hb_vault (hb_vault hb - n) hb) a ac u'.
Proof.
  intros Hb H. destruct (xfer_out_inv _ _ _ _ _ _ H (nth_bank_upd _ _ _ _ _ _ _ Hb)) as (Hle & u' & ->).
  split; [exact Hle|]. exists u'. unfold upd. cbn [hw_banks hw_accts hw_now hw_pf hw_risk_admin_signs]. rewrite set_nth_set_nth. reflexivity.
Qed.
Lemma eff1_upd w b hb hb' a ac ac' u :
  nth_bank w b = Ok hb -> nth_acct w a = Ok ac -> eff1 w (upd w b hb' a ac' u) a b hb hb' ac ac'.
Proof. intros Hb Ha. unfold eff1. repeat split; assumption. Qed.

Lemma eff1_banks w w' a b hb hb' ac ac' :
  eff1 w w' a b hb hb' ac ac' ->
  nth_bank w b = Ok hb /\ nth_bank w' b = Ok hb' /\ (forall k, k <> b -> nth_bank w' k = nth_bank w k).
Proof.
  intros (E1 & _ & E3 & _). split; [exact E1|]. split; [exact (nth_bank_of_eq _ _ _ _ _ E3 E1)|].
  intros k Hk. unfold nth_bank, nth_res. rewrite E3, nth_set_nth_other by congruence. reflexivity.
Qed.

Lemma eff1_accts w w' a b hb hb' ac ac' :
  eff1 w w' a b hb hb' ac ac' ->
  nth_acct w a = Ok ac /\ nth_acct w' a = Ok ac' /\ (forall k, k <> a -> nth_acct w' k = nth_acct w k).
Proof.
  intros (_ & E2 & _ & E4 & _). split; [exact E2|]. split; [exact (nth_acct_of_eq _ _ _ _ _ E4 E2)|].
  intros k Hk. unfold nth_acct, nth_res. rewrite E4, nth_set_nth_other by congruence. reflexivity.
Qed.

Lemma eff1_at w w' a b hb0 hb0' ac ac' hb hb' :
  eff1 w w' a b hb0 hb0' ac ac' -> nth_bank w b = Ok hb -> nth_bank w' b = Ok hb' -> hb0 = hb /\ hb0' = hb'.
Proof.
  intros E Hb Hb'. destruct (eff1_banks _ _ _ _ _ _ _ _ E) as (B & B' & _).
  rewrite Hb in B. rewrite Hb' in B'. apply Ok_inj in B, B'. auto.
Qed.

Lemma not_disabled ac u : check (negb (aflag ac ACCOUNT_DISABLED)) (E E_AccountDisabled) = Ok u -> aflag ac ACCOUNT_DISABLED = false.
Proof. intros H. apply check_ok in H. destruct (aflag ac ACCOUNT_DISABLED); [discriminate|reflexivity]. Qed.

Lemma capacity_nonneg b c : remaining_deposit_capacity b = Ok c -> 0 <= c.
Proof.
  unfold remaining_deposit_capacity. destruct (negb (dep_limit_active b)).
  - intros H. apply Ok_inj in H. subst. rewrite U64_MAX_val. lia.
  - intros H. bind_inv H as cur _. bind_inv H as lim _.
    destruct (lim <=? cur); [apply Ok_inj in H; lia|].
    bind_inv H as r1 _. bind_inv H as r2 _. bind_inv H as r3 _.
    apply math_ok, to_u64_inv in H. lia.
Qed.

(* ---------------------------------------------------------------- deposit *)
Definition deposit_facts (w : hworld) (a b : nat) (amount : Z) (up : bool) (hb hb' : hbank) (ac ac' : hacct) : Prop :=
  exists bk1 dep, accrue_interest (hb_b hb) (hw_pf w) (hw_now w) = Ok bk1 /\
    validate_asset_tags (hb_b hb) (ha_la ac) = Ok tt /\ aflag ac ACCOUNT_DISABLED = false /\
    (if up then let* c := remaining_deposit_capacity bk1 in Ok (Z.min amount c) else Ok amount) = Ok dep /\
    ( (dep = 0 /\ hb' = set_hb_b bk1 hb /\ ac' = ac)
      \/ dep <> 0 /\ exists i la1 bl bk2 bl2 pre f bk3,
           wrapper_find_or_create (bank_pk b) bk1 (ha_la ac) (hw_now w) = Ok (i, la1) /\ nth_res i la1 = Ok bl /\
           increase_balance bk1 bl (t64 w) (of_int dep) IncDepositOnly = Ok (bk2, bl2) /\
           pre_fee hb dep = Ok pre /\ tfee hb pre = Ok f /\
           update_bank_cache bk2 (hw_pf w) (hw_now w) = Ok bk3 /\
           hb' = mk_hb bk3 (hb_vault hb + pre - f) hb /\
           ac' = sort_acct (mkHA (set_nth i bl2 la1) (ha_flags ac)) ).

Lemma deposit_amount_bound (up : bool) bk1 amount dep :
  0 <= amount -> (if up then let* c := remaining_deposit_capacity bk1 in Ok (Z.min amount c) else Ok amount) = Ok dep ->
  0 <= dep <= amount.
Proof.
  intros Hamt Hdep. destruct up.
  - apply bind_ok in Hdep as (c & Hc & Hdep). apply Ok_inj in Hdep. apply capacity_nonneg in Hc. lia.
  - apply Ok_inj in Hdep. lia.
Qed.

Lemma h_deposit_effect w a b amount up w' :
  h_deposit w a b amount up = Ok w' ->
  exists hb hb' ac ac', eff1 w w' a b hb hb' ac ac' /\ deposit_facts w a b amount up hb hb' ac ac'.
Proof.
  intros H. unfold h_deposit in H.
  bind_inv H as hb Hhb. bind_inv H as ac Hac.
  bind_inv H as u1 _. bind_inv H as u2 _.
  bind_inv H as [] Htags. bind_inv H as u4 _.
  bind_inv H as u5 Hfl. apply check_ok in Hfl.
  bind_inv H as bk1 Hacc. bind_inv H as dep Hdep.
  assert (Hdis : aflag ac ACCOUNT_DISABLED = false) by (destruct (aflag ac ACCOUNT_DISABLED); [discriminate|reflexivity]).
  exists hb. destruct (Z.eqb_spec dep 0) as [Ed|Ed].
  - apply Ok_inj in H. subst w'. exists (set_hb_b bk1 hb), ac, ac.
    split.
    + unfold eff1, put_hbank. cbn [hw_banks hw_accts hw_now hw_pf hw_risk_admin_signs].
      repeat split; try assumption; try reflexivity.
      symmetry. apply set_nth_same_id. apply nth_res_ok. exact Hac.
    + exists bk1, dep. repeat split; try assumption. left. split; [exact Ed|split; reflexivity].
  - bind_inv H as [i la1] Hloc. bind_inv H as bl Hbl.
    bind_inv H as [bk2 bl2] Hinc. bind_inv H as pre Hpre.
    rewrite put_cells in H.
    bind_inv H as w2 Hx. apply (xfer_in_upd _ _ _ _ _ _ _ _ _ _ Hhb) in Hx as (f & u' & Hf & ->).
    rewrite (nth_bank_upd _ _ _ _ _ _ _ Hhb) in H. cbn [bind] in H.
    bind_inv H as bk3 Hcache.
    rewrite (nth_acct_upd _ _ _ _ _ _ _ Hac) in H. cbn [bind] in H.
    rewrite put_cells_upd in H. apply Ok_inj in H. subst w'.
    exists (mk_hb bk3 (hb_vault hb + pre - f) hb), ac, (sort_acct (mkHA (set_nth i bl2 la1) (ha_flags ac))).
    split; [exact (eff1_upd _ _ _ _ _ _ _ _ Hhb Hac)|].
    exists bk1, dep. repeat split; try assumption. right. split; [exact Ed|].
    exists i, la1, bl, bk2, bl2, pre, f, bk3. repeat split; assumption || reflexivity.
Qed.

(* ---------------------------------------------------------------- withdraw *)
Definition withdraw_facts (w w' : hworld) (a b : nat) (amount : Z) (all : bool) (hb hb' : hbank) (ac ac' : hacct) : Prop :=
  exists bk1 i bl bk2 bl2 pre paid bk3,
    accrue_interest (hb_b hb) (hw_pf w) (hw_now w) = Ok bk1 /\ aflag ac ACCOUNT_DISABLED = false /\
    wrapper_find (bank_pk b) (ha_la ac) = Ok i /\ nth_res i (ha_la ac) = Ok bl /\
    (if all then withdraw_all bk1 bl (t64 w) = Ok (bk2, bl2, pre)
     else pre_fee hb amount = Ok pre /\ decrease_balance bk1 bl (t64 w) (of_int pre) DecWithdrawOnly = Ok (bk2, bl2)) /\
    paid = (if get_flag (b_flags bk2) TOKENLESS_REPAYMENTS_COMPLETE then Z.min pre (hb_vault hb) else pre) /\
    paid <= hb_vault hb /\
    update_bank_cache bk2 (hw_pf w) (hw_now w) = Ok bk3 /\
    hb' = mk_hb bk3 (hb_vault hb - paid) hb /\
    ac' = sort_acct (mkHA (set_nth i bl2 (ha_la ac)) (ha_flags ac)) /\
    init_health_check w' ac' = Ok tt.

Lemma h_withdraw_effect w a b amount all w' :
  h_withdraw w a b amount all = Ok w' ->
  exists hb hb' ac ac', eff1 w w' a b hb hb' ac ac' /\ withdraw_facts w w' a b amount all hb hb' ac ac'.
Proof.
  intros H. unfold h_withdraw in H.
  bind_inv H as hb Hhb. bind_inv H as ac Hac.
  bind_inv H as u1 _. bind_inv H as u2 Hdis. apply not_disabled in Hdis.
  bind_inv H as u3 _. bind_inv H as bk1 Hacc.
  bind_inv H as i Hi. bind_inv H as bl Hbl.
  bind_inv H as [[bk2 bl2] pre] Hprim.
  set (paid := if get_flag (b_flags bk2) TOKENLESS_REPAYMENTS_COMPLETE then Z.min pre (hb_vault hb) else pre) in H.
  rewrite put_cells in H.
  bind_inv H as w2 Hx. apply (xfer_out_upd _ _ _ _ _ _ _ _ _ _ Hhb) in Hx as (Hle & u' & ->).
  rewrite (nth_bank_upd _ _ _ _ _ _ _ Hhb) in H. cbn [bind] in H.
  bind_inv H as bk3 Hcache.
  rewrite (nth_acct_upd _ _ _ _ _ _ _ Hac) in H. cbn [bind] in H. rewrite put_cells_upd in H.
  bind_inv H as [] Hhealth. apply Ok_inj in H. subst w'.
  exists hb, (mk_hb bk3 (hb_vault hb - paid) hb), ac, (sort_acct (mkHA (set_nth i bl2 (ha_la ac)) (ha_flags ac))).
  split; [exact (eff1_upd _ _ _ _ _ _ _ _ Hhb Hac)|].
  exists bk1, i, bl, bk2, bl2, pre, paid, bk3.
  split; [exact Hacc|]. split; [exact Hdis|]. split; [exact Hi|]. split; [exact Hbl|].
  split.
  { destruct all; [exact Hprim|].
    apply bind_ok in Hprim as (pre0 & Hpre & Hprim). apply bind_ok in Hprim as ([bk2' bl2'] & Hdec & Hprim).
    apply Ok_inj in Hprim. apply pair_equal_spec in Hprim as [Hp1 <-]. apply pair_equal_spec in Hp1 as [<- <-].
    split; assumption. }
  split; [reflexivity|]. split; [exact Hle|]. split; [exact Hcache|]. split; [reflexivity|]. split; [reflexivity|].
  exact Hhealth.
Qed.

(* what the ledger / solvency arguments need of a withdrawal: everything except the account-flag test and the health
   check (shared with the deleverage withdrawal, which has no health check) *)
Definition withdraw_core (w : hworld) (b : nat) (amount : Z) (all : bool) (hb hb' : hbank) (ac ac' : hacct) : Prop :=
  exists bk1 i bl bk2 bl2 pre paid bk3,
    accrue_interest (hb_b hb) (hw_pf w) (hw_now w) = Ok bk1 /\
    wrapper_find (bank_pk b) (ha_la ac) = Ok i /\ nth_res i (ha_la ac) = Ok bl /\
    (if all then withdraw_all bk1 bl (t64 w) = Ok (bk2, bl2, pre)
     else pre_fee hb amount = Ok pre /\ decrease_balance bk1 bl (t64 w) (of_int pre) DecWithdrawOnly = Ok (bk2, bl2)) /\
    paid = (if get_flag (b_flags bk2) TOKENLESS_REPAYMENTS_COMPLETE then Z.min pre (hb_vault hb) else pre) /\
    paid <= hb_vault hb /\
    update_bank_cache bk2 (hw_pf w) (hw_now w) = Ok bk3 /\
    hb' = mk_hb bk3 (hb_vault hb - paid) hb /\
    ac' = sort_acct (mkHA (set_nth i bl2 (ha_la ac)) (ha_flags ac)).

Lemma withdraw_facts_core w w' a b amount all hb hb' ac ac' :
  withdraw_facts w w' a b amount all hb hb' ac ac' -> withdraw_core w b amount all hb hb' ac ac'.
Proof.
  intros (bk1 & i & bl & bk2 & bl2 & pre & paid & bk3 & H1 & _ & H2 & H3 & H4 & H5 & H6 & H7 & H8 & H9 & _).
  exists bk1, i, bl, bk2, bl2, pre, paid, bk3. repeat split; assumption.
Qed.

(* ---------------------------------------------------------------- borrow *)
(* the origination fee is booked to the group / program fee buckets *)
Definition book_orig_fee (pf : prog_fees) (ofee : fx) (bk3 : bank) : res bank :=
  if ofee =? 0 then Ok bk3 else
  if pf_rate pf =? 0 then Ok (set_b_grp (clamp I128_MIN I128_MAX (b_grp bk3 + ofee)) bk3)
  else
    let* pfa := math (cmul ofee (pf_rate pf)) in
    let rest := clamp I128_MIN I128_MAX (ofee - pfa) in
    Ok (set_b_prog (clamp I128_MIN I128_MAX (b_prog bk3 + pfa))
                   (set_b_grp (clamp I128_MIN I128_MAX (b_grp bk3 + rest)) bk3)).
Lemma book_orig_fee_cases pf ofee bk bk' : book_orig_fee pf ofee bk = Ok bk' ->
  bk' = bk
  \/ bk' = set_b_grp (clamp I128_MIN I128_MAX (b_grp bk + ofee)) bk
  \/ bk' = set_b_prog (clamp I128_MIN I128_MAX (b_prog bk + ofee * pf_rate pf / ONE))
                      (set_b_grp (clamp I128_MIN I128_MAX (b_grp bk + clamp I128_MIN I128_MAX (ofee - ofee * pf_rate pf / ONE))) bk).
Proof.
  unfold book_orig_fee. intros H. destruct (ofee =? 0); [apply Ok_inj in H; auto|].
  destruct (pf_rate pf =? 0); [apply Ok_inj in H; auto|].
  bind_inv H as pfa Hpfa. apply math_ok, cmul_inv in Hpfa as [-> _]. apply Ok_inj in H. auto.
Qed.

(* the amount booked for a borrow of `pre` tokens and the origination fee in it, as lending_account_borrow computes them *)
Definition orig_fee_of (hb : hbank) (pre : Z) : res (fx * fx) :=
  if hb_orig_fee hb =? 0 then Ok (of_int pre, 0)
  else let* f := math (cmul (of_int pre) (hb_orig_fee hb)) in
       let* _ := math (to_u64_checked f) in
       let* d := uadd (of_int pre) f in Ok (d, f).

Definition borrow_facts (w w' : hworld) (a b : nat) (amount : Z) (hb hb' : hbank) (ac ac' : hacct) : Prop :=
  exists bk1 i la1 bl pre delta ofee bk2 bl2 bk4 bk5,
    accrue_interest (hb_b hb) (hw_pf w) (hw_now w) = Ok bk1 /\ aflag ac ACCOUNT_DISABLED = false /\
    validate_asset_tags bk1 (ha_la ac) = Ok tt /\
    get_flag (b_flags (hb_b hb)) TOKENLESS_REPAYMENTS_ALLOWED = false /\
    wrapper_find_or_create (bank_pk b) bk1 (ha_la ac) (hw_now w) = Ok (i, la1) /\ nth_res i la1 = Ok bl /\
    pre_fee hb amount = Ok pre /\ orig_fee_of hb pre = Ok (delta, ofee) /\
    decrease_balance bk1 bl (t64 w) delta DecBorrowOnly = Ok (bk2, bl2) /\
    pre <= hb_vault hb /\
    book_orig_fee (hw_pf w) ofee bk2 = Ok bk4 /\
    update_bank_cache bk4 (hw_pf w) (hw_now w) = Ok bk5 /\
    hb' = mk_hb bk5 (hb_vault hb - pre) hb /\
    ac' = sort_acct (mkHA (set_nth i bl2 la1) (ha_flags ac)) /\
    init_health_check (put_hbank w' b (mk_hb bk4 (hb_vault hb - pre) hb)) ac' = Ok tt.

Lemma h_borrow_effect w a b amount w' :
  h_borrow w a b amount = Ok w' ->
  exists hb hb' ac ac', eff1 w w' a b hb hb' ac ac' /\ borrow_facts w w' a b amount hb hb' ac ac'.
Proof.
  intros H. unfold h_borrow in H.
  bind_inv H as hb Hhb. bind_inv H as ac Hac.
  bind_inv H as u1 _. bind_inv H as u2 Htl. apply check_ok in Htl.
  bind_inv H as u3 Hfl. apply check_ok in Hfl.
  bind_inv H as bk1 Hacc. bind_inv H as [] Htags.
  bind_inv H as u5 _.
  bind_inv H as [i la1] Hloc. bind_inv H as bl Hbl.
  bind_inv H as pre Hpre. bind_inv H as [delta ofee] Hof.
  bind_inv H as [bk2 bl2] Hdec.
  rewrite put_cells in H.
  bind_inv H as w2 Hx. apply (xfer_out_upd _ _ _ _ _ _ _ _ _ _ Hhb) in Hx as (Hle & u' & ->).
  rewrite (nth_bank_upd _ _ _ _ _ _ _ Hhb) in H. cbn [bind] in H.
  bind_inv H as bk4 Hbook.
  rewrite (nth_acct_upd _ _ _ _ _ _ _ Hac) in H. cbn [bind] in H. rewrite put_cells_upd in H.
  bind_inv H as [] Hhealth.
  rewrite (nth_bank_upd _ _ _ _ _ _ _ Hhb) in H. cbn [bind] in H.
  bind_inv H as bk5 Hcache. rewrite put_hbank_upd in H. apply Ok_inj in H. subst w'.
  exists hb, (mk_hb bk5 (hb_vault hb - pre) hb), ac, (sort_acct (mkHA (set_nth i bl2 la1) (ha_flags ac))).
  split; [exact (eff1_upd _ _ _ _ _ _ _ _ Hhb Hac)|].
  exists bk1, i, la1, bl, pre, delta, ofee, bk2, bl2, bk4, bk5.
  split; [exact Hacc|]. split; [destruct (aflag ac ACCOUNT_DISABLED); [discriminate|reflexivity]|]. split; [exact Htags|].
  split; [destruct (get_flag (b_flags (hb_b hb)) TOKENLESS_REPAYMENTS_ALLOWED); [discriminate|reflexivity]|].
  split; [exact Hloc|]. split; [exact Hbl|]. split; [exact Hpre|]. split; [exact Hof|]. split; [exact Hdec|].
  split; [exact Hle|]. split; [exact Hbook|]. split; [exact Hcache|]. split; [reflexivity|]. split; [reflexivity|].
  rewrite put_hbank_upd. exact Hhealth.
Qed.

(* ---------------------------------------------------------------- repay *)
(* the end of lending_account_repay: a bank that allows token-less repayments and whose liabilities fell to dust is
   marked TOKENLESS_REPAYMENTS_COMPLETE *)
Definition mark_tokenless_complete (bk3 : bank) : bank :=
  if get_flag (b_flags bk3) TOKENLESS_REPAYMENTS_ALLOWED
     && (fabs_w (b_tls bk3) <? wmul ZERO_AMOUNT_THRESHOLD (of_int 10))
  then set_b_flags (Z.lor (b_flags bk3) TOKENLESS_REPAYMENTS_COMPLETE) bk3 else bk3.

Definition repay_facts (w : hworld) (a b : nat) (amount : Z) (all : bool) (hb hb' : hbank) (ac ac' : hacct) : Prop :=
  exists bk1 i bl bk2 bl2 post V' bk5,
    accrue_interest (hb_b hb) (hw_pf w) (hw_now w) = Ok bk1 /\ aflag ac ACCOUNT_DISABLED = false /\
    wrapper_find (bank_pk b) (ha_la ac) = Ok i /\ nth_res i (ha_la ac) = Ok bl /\
    (if all then repay_all bk1 bl (t64 w) = Ok (bk2, bl2, post)
     else post = amount /\ increase_balance bk1 bl (t64 w) (of_int amount) IncRepayOnly = Ok (bk2, bl2)) /\
    (* tokens: either the sanctioned token-less write-off, or the pre-fee amount is pulled in *)
    ( (hw_risk_admin_signs w = true /\ get_flag (b_flags bk2) TOKENLESS_REPAYMENTS_ALLOWED = true /\ all = true /\ V' = hb_vault hb)
      \/ exists pre f, pre_fee hb post = Ok pre /\ tfee hb pre = Ok f /\ V' = hb_vault hb + pre - f ) /\
    update_bank_cache (mark_tokenless_complete bk2) (hw_pf w) (hw_now w) = Ok bk5 /\
    hb' = mk_hb bk5 V' hb /\
    ac' = sort_acct (mkHA (set_nth i bl2 (ha_la ac)) (ha_flags ac)).

Lemma dv_repay_effect w a r b amount all w' :
  dv_repay w a r b amount all = Ok w' ->
  exists hb hb' ac ac', eff1 w w' a b hb hb' ac ac' /\ repay_facts w a b amount all hb hb' ac ac'.
Proof.
  intros H. unfold dv_repay in H.
  bind_inv H as hb Hhb. bind_inv H as ac Hac.
  bind_inv H as u1 _. bind_inv H as u2 Hdis. apply not_disabled in Hdis.
  bind_inv H as u3 _. bind_inv H as bk1 Hacc.
  bind_inv H as i Hi. bind_inv H as bl Hbl.
  bind_inv H as [[bk2 bl2] post] Hprim.
  rewrite put_cells in H. bind_inv H as w2 Hx.
  (* tokens: the sanctioned token-less write-off leaves the vault alone, otherwise the pre-fee amount is pulled in *)
  assert (Hw2 : exists V' u', w2 = upd w b (set_hb_vault V' (set_hb_b bk2 hb)) a (mkHA (set_nth i bl2 (ha_la ac)) (ha_flags ac)) u' /\
                  ( (hw_risk_admin_signs w = true /\ get_flag (b_flags bk2) TOKENLESS_REPAYMENTS_ALLOWED = true /\ all = true /\ V' = hb_vault hb)
                    \/ exists pre f, pre_fee hb post = Ok pre /\ tfee hb pre = Ok f /\ V' = hb_vault hb + pre - f )).
  { destruct (hw_risk_admin_signs w && get_flag (b_flags bk2) TOKENLESS_REPAYMENTS_ALLOWED && all) eqn:Etl.
    - apply Ok_inj in Hx. subst w2. exists (hb_vault hb), (hw_utok w). split; [destruct hb; reflexivity|]. left.
      apply Bool.andb_true_iff in Etl as [Etl ->]. apply Bool.andb_true_iff in Etl as [-> ->]. repeat split; reflexivity.
    - apply bind_ok in Hx as (pre & Hpre & Hx). apply (xfer_in_upd _ _ _ _ _ _ _ _ _ _ Hhb) in Hx as (f & u' & Hf & ->).
      exists (hb_vault hb + pre - f), u'. split; [reflexivity|]. right. exists pre, f. repeat split; assumption. }
  destruct Hw2 as (V' & u' & -> & Htok).
  rewrite (nth_bank_upd _ _ _ _ _ _ _ Hhb) in H. cbn [bind] in H.
  fold (mark_tokenless_complete (hb_b (set_hb_vault V' (set_hb_b bk2 hb)))) in H.
  bind_inv H as bk5 Hcache.
  rewrite (nth_acct_upd _ _ _ _ _ _ _ Hac) in H. cbn [bind] in H. rewrite put_cells_upd in H.
  apply Ok_inj in H. subst w'.
  exists hb, (mk_hb bk5 V' hb), ac, (sort_acct (mkHA (set_nth i bl2 (ha_la ac)) (ha_flags ac))).
  split; [exact (eff1_upd _ _ _ _ _ _ _ _ Hhb Hac)|].
  exists bk1, i, bl, bk2, bl2, post, V', bk5.
  split; [exact Hacc|]. split; [exact Hdis|]. split; [exact Hi|]. split; [exact Hbl|].
  split.
  { destruct all; [exact Hprim|].
    apply bind_ok in Hprim as ([bk2' bl2'] & Hinc & Hprim).
    apply Ok_inj in Hprim. apply pair_equal_spec in Hprim as [Hp1 <-]. apply pair_equal_spec in Hp1 as [<- <-].
    split; [reflexivity|exact Hinc]. }
  split; [exact Htok|]. split; [exact Hcache|]. split; reflexivity.
Qed.

(* the ordinary repayment is the one above with the tokens taken from the account's own row *)
Lemma h_repay_effect w a b amount all w' :
  h_repay w a b amount all = Ok w' ->
  exists hb hb' ac ac', eff1 w w' a b hb hb' ac ac' /\ repay_facts w a b amount all hb hb' ac ac'.
Proof. exact (dv_repay_effect w a a b amount all w'). Qed.

(* ---------------------------------------------------------------- close_balance / accrue *)
Definition close_facts (w : hworld) (a b : nat) (hb hb' : hbank) (ac ac' : hacct) : Prop :=
  exists bk1 bk2 i bl bk3 bl3,
    accrue_interest (hb_b hb) (hw_pf w) (hw_now w) = Ok bk1 /\ aflag ac ACCOUNT_DISABLED = false /\
    update_bank_cache bk1 (hw_pf w) (hw_now w) = Ok bk2 /\
    wrapper_find (bank_pk b) (ha_la ac) = Ok i /\ nth_res i (ha_la ac) = Ok bl /\
    close_balance bk2 bl (t64 w) = Ok (bk3, bl3) /\
    hb' = set_hb_b bk3 hb /\ ac' = sort_acct (mkHA (set_nth i bl3 (ha_la ac)) (ha_flags ac)).

Lemma h_close_balance_effect w a b w' :
  h_close_balance w a b = Ok w' ->
  exists hb hb' ac ac', eff1 w w' a b hb hb' ac ac' /\ close_facts w a b hb hb' ac ac'.
Proof.
  intros H. unfold h_close_balance in H.
  bind_inv H as hb Hhb. bind_inv H as ac Hac.
  bind_inv H as u1 _. bind_inv H as u2 Hdis. apply not_disabled in Hdis.
  bind_inv H as bk1 Hacc. bind_inv H as bk2 Hcache.
  bind_inv H as i Hi. bind_inv H as bl Hbl.
  bind_inv H as [bk3 bl3] Hcl. apply Ok_inj in H. subst w'.
  exists hb, (set_hb_b bk3 hb), ac, (sort_acct (mkHA (set_nth i bl3 (ha_la ac)) (ha_flags ac))).
  split; [exact (eff1_upd _ _ _ _ _ _ _ _ Hhb Hac)|].
  exists bk1, bk2, i, bl, bk3, bl3. repeat split; assumption || reflexivity.
Qed.

(* bank-only handlers *)
Definition effb (w w' : hworld) (b : nat) (hb hb' : hbank) : Prop :=
  nth_bank w b = Ok hb /\ hw_banks w' = set_nth b hb' (hw_banks w) /\ hw_accts w' = hw_accts w /\
  hw_now w' = hw_now w /\ hw_pf w' = hw_pf w /\ hw_risk_admin_signs w' = hw_risk_admin_signs w.

Lemma h_accrue_effect w b w' :
  h_accrue w b = Ok w' ->
  exists hb bk1 bk2, effb w w' b hb (set_hb_b bk2 hb) /\
    accrue_interest (hb_b hb) (hw_pf w) (hw_now w) = Ok bk1 /\ update_bank_cache bk1 (hw_pf w) (hw_now w) = Ok bk2.
Proof.
  intros H. unfold h_accrue in H.
  bind_inv H as hb Hhb. bind_inv H as bk1 Hacc. bind_inv H as bk2 Hcache.
  apply Ok_inj in H. subst w'. exists hb, bk1, bk2. split; [|split; assumption].
  unfold effb, put_hbank. cbn [hw_banks hw_accts hw_now hw_pf hw_risk_admin_signs]. repeat split; try assumption; reflexivity.
Qed.

(* ---------------------------------------------------------------- bankruptcy *)
Definition bankruptcy_facts (w : hworld) (a b : nat) (hb hb' : hbank) (ac ac' : hacct) : Prop :=
  exists ps A L bk1 i bl bad avail_n covered loss ce cov_n pre f bk2 kill bk3 bl3 bk4,
    validate_bank_state (hb_b hb) KFailsInPaused = Ok tt /\ aflag ac ACCOUNT_IN_FLASHLOAN = false /\
    positions w (ha_la ac) = Ok ps /\ check_bankrupt ps false = Ok (A, L) /\
    accrue_interest (hb_b hb) (hw_pf w) (hw_now w) = Ok bk1 /\
    find_active (bank_pk b) (ha_la ac) = Some i /\ nth_res i (ha_la ac) = Ok bl /\
    get_liability_amount bk1 (bl_l bl) = Ok bad /\ ZERO_AMOUNT_THRESHOLD < bad /\
    (if hb_t22 hb then exists f0, tfee hb (hb_insv hb) = Ok f0 /\ avail_n = hb_insv hb - f0 else avail_n = hb_insv hb) /\
    covered = fmin bad (of_int avail_n) /\ loss = fmax (bad - covered) 0 /\
    cceil covered = Ok ce /\ to_u64_checked ce = Ok cov_n /\
    pre_fee hb cov_n = Ok pre /\ pre <= hb_insv hb /\ tfee hb pre = Ok f /\
    socialize_loss bk1 loss = Ok (bk2, kill) /\
    increase_balance bk2 bl (t64 w) bad IncRepayOnly = Ok (bk3, bl3) /\
    update_bank_cache bk3 (hw_pf w) (hw_now w) = Ok bk4 /\
    hb' = set_hb_b (if kill then set_b_op_state OP_KILLED bk4 else bk4)
                   (set_hb_vault (hb_vault hb + pre - f) (set_hb_insv (hb_insv hb - pre) hb)) /\
    ac' = mkHA (set_nth i bl3 (ha_la ac)) (Z.lor (ha_flags ac) ACCOUNT_DISABLED).

Lemma h_bankruptcy_effect w a b w' :
  h_bankruptcy w a b = Ok w' ->
  exists hb hb' ac ac', eff1 w w' a b hb hb' ac ac' /\ bankruptcy_facts w a b hb hb' ac ac'.
Proof.
  intros H. unfold h_bankruptcy in H.
  bind_inv H as hb Hhb. bind_inv H as ac Hac.
  bind_inv H as [] Hst. bind_inv H as u2 Hfl. apply check_ok in Hfl.
  bind_inv H as ps Hps. bind_inv H as [A L] Hbk.
  bind_inv H as bk1 Hacc.
  bind_inv H as i Hi. bind_inv H as bl Hbl.
  bind_inv H as bad Hbad. bind_inv H as u3 Hthr. apply check_ok in Hthr.
  bind_inv H as avail_n Hav.
  bind_inv H as d Hd. apply usub_inv in Hd as [-> _].
  bind_inv H as ce Hce. apply math_ok in Hce.
  bind_inv H as cov_n Hcn. apply math_ok in Hcn.
  bind_inv H as pre Hpre. bind_inv H as u4 Hle. apply check_ok in Hle.
  bind_inv H as f Hf. bind_inv H as [bk2 kill] Hsoc.
  bind_inv H as i2 _. bind_inv H as [bk3 bl3] Hinc.
  bind_inv H as bk4 Hcache. apply Ok_inj in H. subst w'.
  exists hb. eexists. exists ac. eexists. split; [exact (eff1_upd _ _ _ _ _ _ _ _ Hhb Hac)|].
  exists ps, A, L, bk1, i, bl, bad, avail_n, (fmin bad (of_int avail_n)), (fmax (bad - fmin bad (of_int avail_n)) 0), ce, cov_n, pre, f, bk2, kill, bk3, bl3, bk4.
  split; [exact Hst|]. split; [destruct (aflag ac ACCOUNT_IN_FLASHLOAN); [discriminate|reflexivity]|].
  split; [exact Hps|]. split; [exact Hbk|]. split; [exact Hacc|].
  split; [destruct (find_active (bank_pk b) (ha_la ac)); [apply Ok_inj in Hi; congruence|discriminate]|].
  split; [exact Hbl|]. split; [exact Hbad|]. split; [lia|].
  split.
  { destruct (hb_t22 hb).
    - apply bind_ok in Hav as (f0 & Hf0 & Hav). apply math_ok, chko_inv in Hav as [-> _]. exists f0. split; [exact Hf0|reflexivity].
    - apply Ok_inj in Hav. symmetry. exact Hav. }
  split; [reflexivity|]. split; [reflexivity|]. split; [exact Hce|]. split; [exact Hcn|].
  split; [exact Hpre|]. split; [lia|]. split; [exact Hf|]. split; [exact Hsoc|]. split; [exact Hinc|].
  split; [exact Hcache|]. split; [destruct kill; reflexivity|reflexivity].
Qed.

(* ---------------------------------------------------------------- liquidation *)
(* What a successful h_liquidate_gen did, in the order in which it did it: r is the liquidator, e the liquidatee, ab / lb
   the asset and the liability bank.  `load` is how the engine obtains the liquidatee's positions; it is only required
   not to look at the accounts of the world. *)
Record liquidate_run (load : hworld -> laccount -> res (list rpos)) (w : hworld) (r e ab lb : nat) (n : Z) (w' : hworld)
  (ha hl : hbank) (ee er : hacct) (ba1 bl1 : bank) (ps0 ps1 : list rpos) (h0 A0 L0 h1 : fx)
  (ap lp v1 v2 q_liq q_fin : fx) (i1 i2 i3 i4 : nat) (la1 la3 : laccount)
  (b1 b1' b2 b2' b3 b3' b4 b4' : balance) (bl2 ba2 ba3 bl3 : bank)
  (ee3 er3 : hacct) (ha' hl' : hbank) (f ins_n : Z) (ba4 bl5 : bank) : Prop := {
  lr_banks : nth_bank w ab = Ok ha /\ nth_bank w lb = Ok hl;
  lr_args : 0 < n /\ ab <> lb /\ r <> e;
  lr_accts : nth_acct w e = Ok ee /\ nth_acct w r = Ok er;
  lr_checks : is_marginfi_tag (b_asset_tag (hb_b hl)) = true /\
              negb (aflag er ACCOUNT_IN_RECEIVERSHIP) && negb (aflag ee ACCOUNT_IN_RECEIVERSHIP) = true /\
              validate_bank_state (hb_b ha) KFailsInPaused = Ok tt /\ validate_bank_state (hb_b hl) KFailsInPaused = Ok tt /\
              aflag ee ACCOUNT_IN_FLASHLOAN = false;
  lr_tags : validate_bank_asset_tags (hb_b ha) (hb_b hl) = Ok tt /\ validate_asset_tags (hb_b hl) (ha_la ee) = Ok tt /\
            validate_asset_tags (hb_b hl) (ha_la er) = Ok tt /\ validate_asset_tags (hb_b ha) (ha_la er) = Ok tt;
  lr_accrued : accrue_interest (hb_b ha) (hw_pf w) (hw_now w) = Ok ba1 /\
               accrue_interest (hb_b hl) (hw_pf w) (hw_now w) = Ok bl1;
  (* eligibility: the liquidatee's sorted positions in the world with both banks accrued *)
  lr_pre : load (put_hbank (put_hbank w ab (set_hb_b ba1 ha)) lb (set_hb_b bl1 hl)) (sort_balances (ha_la ee)) = Ok ps0 /\
           pre_liquidation ps0 (Some (bank_pk lb)) false = Ok (h0, A0, L0);
  lr_prices : fd_load (hb_feed ha) = Ok tt /\ fd_low_rt (hb_feed ha) = Ok ap /\ 0 < ap /\
              fd_load (hb_feed hl) = Ok tt /\ fd_high_rt (hb_feed hl) = Ok lp /\ 0 < lp;
  lr_qty : calc_value (of_int n) ap (balance_decimals ba1) (Some (ONE - LIQUIDATION_LIQUIDATOR_FEE)) = Ok v1 /\
           calc_amount v1 lp (balance_decimals bl1) = Ok q_liq /\
           calc_value (of_int n) ap (balance_decimals ba1)
             (Some (ONE - (LIQUIDATION_INSURANCE_FEE + LIQUIDATION_LIQUIDATOR_FEE))) = Ok v2 /\
           calc_amount v2 lp (balance_decimals bl1) = Ok q_fin /\ 0 <= q_fin <= q_liq;
  (* leg 1: the liquidator pays the liability *)
  lr_leg1 : wrapper_find_or_create (bank_pk lb) bl1 (ha_la er) (hw_now w) = Ok (i1, la1) /\ nth_res i1 la1 = Ok b1 /\
            decrease_balance bl1 b1 (t64 w) q_liq DecBypassBorrowLimit = Ok (bl2, b1');
  (* leg 2: the liquidatee gives up the asset (over-liquidation guard first) *)
  lr_leg2 : wrapper_find (bank_pk ab) (sort_balances (ha_la ee)) = Ok i2 /\ nth_res i2 (sort_balances (ha_la ee)) = Ok b2 /\
            of_int n <= bl_a b2 * b_asv ba1 / ONE /\
            decrease_balance ba1 b2 (t64 w) (of_int n) DecBypassBorrowLimit = Ok (ba2, b2');
  (* leg 3: the liquidator receives the asset *)
  lr_leg3 : wrapper_find_or_create (bank_pk ab) ba2 (set_nth i1 b1' la1) (hw_now w) = Ok (i3, la3) /\ nth_res i3 la3 = Ok b3 /\
            increase_balance ba2 b3 (t64 w) (of_int n) IncBypassDepositLimit = Ok (ba3, b3');
  (* leg 4: the liquidatee's debt is repaid by q_fin *)
  lr_leg4 : wrapper_find (bank_pk lb) (set_nth i2 b2' (sort_balances (ha_la ee))) = Ok i4 /\
            nth_res i4 (set_nth i2 b2' (sort_balances (ha_la ee))) = Ok b4 /\
            increase_balance bl2 b4 (t64 w) q_fin IncRepayOnly = Ok (bl3, b4');
  (* the insurance fee q_liq - q_fin leaves the liquidity vault as whole tokens, its fraction is booked to the bank *)
  lr_fee : to_u64_checked (q_liq - q_fin) = Ok ins_n /\ ins_n <= hb_vault hl /\ tfee hl ins_n = Ok f /\
           I128_MIN <= b_ins bl3 + ffrac (q_liq - q_fin) <= I128_MAX;
  lr_cache : update_bank_cache ba3 (hw_pf w) (hw_now w) = Ok ba4 /\
             update_bank_cache (set_b_ins (b_ins bl3 + ffrac (q_liq - q_fin)) bl3) (hw_pf w) (hw_now w) = Ok bl5;
  lr_ha' : ha' = set_hb_b ba4 ha;
  lr_hl' : hl' = set_hb_insv (hb_insv hl + ins_n - f) (set_hb_vault (hb_vault hl - ins_n) (set_hb_b bl5 hl));
  lr_ee3 : ee3 = mkHA (set_nth i4 b4' (set_nth i2 b2' (sort_balances (ha_la ee)))) (ha_flags ee);
  lr_er3 : er3 = sort_acct (mkHA (set_nth i3 b3' la3) (ha_flags er));
  lr_world : w' = mkHW (set_nth lb hl' (set_nth ab ha' (hw_banks w))) (set_nth r er3 (set_nth e ee3 (hw_accts w)))
                    (hw_now w) (hw_pf w) (hw_utok w) (hw_risk_admin_signs w);
  (* the liquidatee is healthier but not healthy, the liquidator passes the engine's gate *)
  lr_post : load w' (ha_la ee3) = Ok ps1 /\ post_liquidation ps1 (bank_pk lb) h0 = Ok h1;
  lr_gate : init_health_check w' er3 = Ok tt
}.

(* the world after both banks and both accounts were written twice *)
Lemma put_twice w ab lb e r xa xl ya yl xe ye xr yr :
  ab <> lb ->
  put_hacct (put_hacct (put_hacct (put_hbank (put_hbank (put_hacct (put_hbank (put_hbank w ab xa) lb xl) e xe) ab ya) lb yl) e ye) r xr) r yr =
  mkHW (set_nth lb yl (set_nth ab ya (hw_banks w))) (set_nth r yr (set_nth e ye (hw_accts w)))
       (hw_now w) (hw_pf w) (hw_utok w) (hw_risk_admin_signs w).
Proof.
  intros Hne. destruct w as [bs acs t pf ut sg]. cbv -[set_nth].
  rewrite (set_nth_comm _ lb ab), set_nth_set_nth, (set_nth_comm _ ab lb), !set_nth_set_nth by congruence. reflexivity.
Qed.

Lemma liquidate_gen_inv load w r e ab lb n w' :
  (forall w a x la, load (put_hacct w a x) la = load w la) ->
  h_liquidate_gen load w r e ab lb n = Ok w' ->
  exists ha hl ee er ba1 bl1 ps0 ps1 h0 A0 L0 h1 ap lp v1 v2 q_liq q_fin i1 i2 i3 i4 la1 la3
         b1 b1' b2 b2' b3 b3' b4 b4' bl2 ba2 ba3 bl3 ee3 er3 ha' hl' f ins_n ba4 bl5,
    liquidate_run load w r e ab lb n w' ha hl ee er ba1 bl1 ps0 ps1 h0 A0 L0 h1 ap lp v1 v2 q_liq q_fin i1 i2 i3 i4 la1 la3
                  b1 b1' b2 b2' b3 b3' b4 b4' bl2 ba2 ba3 bl3 ee3 er3 ha' hl' f ins_n ba4 bl5.
Proof.
  intros Hload H. unfold h_liquidate_gen in H.
  bind_inv H as ha Hha. bind_inv H as hl Hhl.
  bind_inv H as u Htag. apply check_ok in Htag.
  bind_inv H as u0 Hn. apply check_ok, Z.ltb_lt in Hn.
  bind_inv H as u1 Hne. apply check_ok, negb_true_iff, Nat.eqb_neq in Hne.
  bind_inv H as ee Hee. bind_inv H as er Her.
  bind_inv H as u2 Hrec. apply check_ok in Hrec.
  bind_inv H as [] Hvb. bind_inv H as [] Hsa. bind_inv H as [] Hsl.
  bind_inv H as [] Hvle. bind_inv H as [] Hvl. bind_inv H as [] Hva.
  bind_inv H as u3 Hre. apply check_ok, negb_true_iff, Nat.eqb_neq in Hre.
  bind_inv H as ba1 Hba1. bind_inv H as bl1 Hbl1.
  set (w0 := put_hacct (put_hbank (put_hbank w ab (set_hb_b ba1 ha)) lb (set_hb_b bl1 hl)) e (sort_acct ee)) in H.
  bind_inv H as u4 Hfl. apply check_ok, negb_true_iff in Hfl.
  bind_inv H as ps0 Hps0. unfold w0 in Hps0. rewrite Hload in Hps0.
  bind_inv H as [[h0 A0] L0] Hpre.
  bind_inv H as [] Hla. bind_inv H as ap Hap. bind_inv H as u5 Hap0. apply check_ok, Z.ltb_lt in Hap0.
  bind_inv H as [] Hll. bind_inv H as lp Hlp. bind_inv H as u6 Hlp0. apply check_ok, Z.ltb_lt in Hlp0.
  bind_inv H as fsum Hfs. apply uadd_inv in Hfs as [-> _].
  bind_inv H as final_d Hfd. apply usub_inv in Hfd as [-> _].
  bind_inv H as liq_d Hld. apply usub_inv in Hld as [-> _].
  bind_inv H as v1 Hv1. bind_inv H as q_liq Hql. bind_inv H as v2 Hv2. bind_inv H as q_fin Hqf.
  bind_inv H as ins_fee Hif. apply usub_inv in Hif as [-> _].
  bind_inv H as u7 Hif0. apply assert_ok, Z.leb_le, Zle_0_minus_le in Hif0.
  assert (Hqf0 : 0 <= q_fin).
  { refine (liq_qty_nonneg _ _ _ _ _ _ _ _ Hn _ Hap0 Hlp0 Hv2 Hqf). vm_compute. discriminate. }
  (* the liquidator's account was not the one sorted; the banks read again are the two just written *)
  bind_inv H as er0 Her0. unfold w0 in Her0. rewrite nth_acct_put_other in Her0 by congruence.
  change (nth_acct w r = Ok er0) in Her0. rewrite Her in Her0. apply Ok_inj in Her0 as <-.
  bind_inv H as [i1 la1] Hfc1. bind_inv H as b1 Hb1. bind_inv H as [bl2 b1'] Hdec1.
  bind_inv H as i2 Hf2. bind_inv H as b2 Hb2.
  bind_inv H as pre_bal Hpb. apply get_asset_amount_inv in Hpb as ->.
  bind_inv H as u8 Hover. apply check_ok, Z.leb_le in Hover.
  bind_inv H as [ba2 b2'] Hdec2.
  bind_inv H as [i3 la3] Hfc3. bind_inv H as b3 Hb3. bind_inv H as [ba3 b3'] Hinc3.
  bind_inv H as ins_n Hinsn.
  destruct (to_u64_checked (q_liq - q_fin)) as [m|] eqn:Em; [apply Ok_inj in Hinsn as -> | discriminate].
  bind_inv H as i4 Hf4. bind_inv H as b4 Hb4. bind_inv H as [bl3 b4'] Hinc4.
  bind_inv H as hl0 Hhl0.
  assert (Ehl0 : nth_bank w0 lb = Ok (set_hb_b bl1 hl)).
  { apply (put_hbank_get _ _ _ hl). rewrite nth_bank_put_other by exact Hne. exact Hhl. }
  rewrite Ehl0 in Hhl0. apply Ok_inj in Hhl0 as <-.
  bind_inv H as u9 Hvault. apply check_ok, Z.leb_le in Hvault.
  bind_inv H as f Hf.
  bind_inv H as ins' Hins'.
  destruct (cadd (b_ins bl3) (ffrac (q_liq - q_fin))) as [y|] eqn:Ey; [apply Ok_inj in Hins' as -> | discriminate].
  apply cadd_inv in Ey as [-> [Hlo Hhi]].
  bind_inv H as ba4 Hba4. bind_inv H as bl5 Hbl5.
  bind_inv H as ha0 Hha0.
  assert (Eha0 : nth_bank w0 ab = Ok (set_hb_b ba1 ha)).
  { unfold w0. rewrite nth_bank_put_hacct, nth_bank_put_other by congruence. exact (put_hbank_get _ _ _ _ Hha). }
  rewrite Eha0 in Hha0. apply Ok_inj in Hha0 as <-.
  bind_inv H as u10 Hfl3.
  bind_inv H as ps1 Hps1. bind_inv H as h1 Hpost. bind_inv H as [] Hgate. apply Ok_inj in H. subst w'.
  exists ha, hl, ee, er, ba1, bl1, ps0, ps1, h0, A0, L0, h1, ap, lp, v1, v2, q_liq, q_fin, i1, i2, i3, i4, la1, la3.
  exists b1, b1', b2, b2', b3, b3', b4, b4', bl2, ba2, ba3, bl3. do 4 eexists. exists f, ins_n, ba4, bl5.
  constructor; try reflexivity; repeat split; try assumption.
  - exact (put_twice _ _ _ _ _ _ _ _ _ _ _ _ _ Hne).
  - rewrite Hload. exact Hps1.
Qed.
