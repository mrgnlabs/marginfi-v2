(* SolvencyHandlers.v — what each successful instruction does to the bank cell and the account it touches: the cell stays
   well-formed, gap = vault * 2^96 - NAV falls by at most the instruction's allowance (C01), and the account's recorded
   shares move with the bank totals (C02 at instruction level). *)
Require Import Base Constants Fixed Curve Bank BankOps Risk TransferFee Handlers.
Require Import FixedLemmas BankLemmas ValueLemmas AccrualLemmas HandlerLemmas SolvencyLemmas FrameLemmas LedgerLemmas HandlerEffects.
From Coq Require Import ZifyBool.
Local Open Scope Z_scope.

(* every position of the account in bank key k is covered by the bank totals (implied by the ledger invariant) *)
Definition pos_le2 (ta tl : Z) (k : Z) (la : laccount) : Prop :=
  forall bl, In bl la -> bl_active bl = true -> bl_bank bl = k -> bl_a bl <= ta /\ bl_l bl <= tl.
Definition pos_le (bk : bank) (k : Z) (la : laccount) : Prop := pos_le2 (b_tas bk) (b_tls bk) k la.

Lemma pos_le2_mono ta tl ta' tl' k la : pos_le2 ta tl k la -> ta <= ta' -> tl <= tl' -> pos_le2 ta' tl' k la.
Proof. intros H H1 H2 bl Hin Ha Hb. destruct (H bl Hin Ha Hb). lia. Qed.
Lemma pos_le2_sort ta tl k la : pos_le2 ta tl k la -> pos_le2 ta tl k (sort_balances la).
Proof. intros H bl Hin. apply H. apply In_sort. exact Hin. Qed.
Lemma pos_le2_set_nth ta tl k la i x : pos_le2 ta tl k la ->
  (bl_active x = true -> bl_bank x = k -> bl_a x <= ta /\ bl_l x <= tl) -> pos_le2 ta tl k (set_nth i x la).
Proof. intros H Hx bl Hin. apply In_set_nth in Hin as [->|Hin]; [exact Hx|apply H; exact Hin]. Qed.
Lemma find_or_create_pos_le2 k bk la now i la1 ta tl k' :
  wrapper_find_or_create k bk la now = Ok (i, la1) -> pos_le2 ta tl k' la -> 0 <= ta -> 0 <= tl -> pos_le2 ta tl k' la1.
Proof.
  unfold wrapper_find_or_create. intros H Hp Ta Tl. destruct (find_active k la).
  - apply pair_ok in H as [_ <-]. exact Hp.
  - bind_inv H as u _. destruct (find_idx _ la 0); [|discriminate].
    apply pair_ok in H as [_ <-]. apply pos_le2_set_nth; [exact Hp|]. cbn [bl_a bl_l]. lia.
Qed.

Lemma bank_pk_neq a b : a <> b -> bank_pk a <> bank_pk b.
Proof. intros H E. apply bank_pk_inj in E. congruence. Qed.

(* the located slot is covered by the totals, and locating it uncovers nothing *)
Lemma located_le2 k ta tl la i la1 bl :
  located k la i la1 -> nth_res i la1 = Ok bl -> Forall wf_bal la -> pos_le2 ta tl k la -> 0 <= ta -> 0 <= tl ->
  wf_bal bl /\ Forall wf_bal la1 /\ bl_a bl <= ta /\ bl_l bl <= tl /\ bl_active bl = true /\ bl_bank bl = k /\
  (forall ta' tl' k', 0 <= ta' -> 0 <= tl' -> pos_le2 ta' tl' k' la -> pos_le2 ta' tl' k' la1).
Proof.
  intros H Hn Hf Hp Ta Tl. destruct (slot_located _ _ _ _ _ H Hn Hf) as (Hact & Hbank & Wbl & Wla1 & _).
  assert (Hpres : forall ta' tl' k', 0 <= ta' -> 0 <= tl' -> pos_le2 ta' tl' k' la -> pos_le2 ta' tl' k' la1).
  { destruct H as [(_ & ->) | (bk & now & H)]; [auto|]. intros ta' tl' k' Ta' Tl' Hk'. eapply find_or_create_pos_le2; eauto. }
  destruct (Hpres _ _ _ Ta Tl Hp bl (nth_error_In _ _ (nth_res_ok _ _ _ Hn)) Hact Hbank) as [Q1 Q2].
  split; [exact Wbl|]. split; [exact Wla1|]. split; [exact Q1|]. split; [exact Q2|]. split; [exact Hact|]. split; [exact Hbank|exact Hpres].
Qed.

(* ---------------------------------------------------------------- allowances, exceptions, fee buckets *)
Definition acc_slack (w : hworld) (hb : hbank) : Z :=
  match accrue_interest (hb_b hb) (hw_pf w) (hw_now w) with Ok bk1 => accrual_slack (hb_b hb) bk1 | Err _ => 0 end.
Definition sv_slack (w : hworld) (hb : hbank) : Z :=
  match accrue_interest (hb_b hb) (hw_pf w) (hw_now w) with Ok bk1 => b_asv bk1 + b_lsv bk1 | Err _ => 0 end.

Definition fees_rep (bk : bank) : Prop := I128_MIN <= b_grp bk /\ I128_MIN <= b_prog bk.
Definition pf_ok (pf : prog_fees) : Prop := 0 <= pf_rate pf <= ONE.

(* the sanctioned exception: the risk admin's token-less write-off on a bank flagged for it *)
Definition tokenless_writeoff (w : hworld) (hb : hbank) (all : bool) : Prop :=
  hw_risk_admin_signs w = true /\ get_flag (b_flags (hb_b hb)) TOKENLESS_REPAYMENTS_ALLOWED = true /\ all = true.

Lemma fees_rep_gp bk bk' : fees_rep bk -> gp_same bk bk' -> fees_rep bk'.
Proof. intros H (G & P). unfold fees_rep in *. rewrite G, P. exact H. Qed.

(* ---------------------------------------------------------------- the bank cell through the bookkeeping steps *)
Lemma scale_le a b : a <= b -> a * ONE * ONE <= b * ONE * ONE.
Proof. pose proof ONE_pos. nia. Qed.

Lemma hb_ok_tot hb : hb_ok hb -> 0 <= b_tas (hb_b hb) /\ 0 <= b_tls (hb_b hb).
Proof. intros ((_ & _ & ? & ?) & _). split; assumption. Qed.
Lemma hb_ok_set_b_id hb : hb_ok hb -> hb_ok (set_hb_b (hb_b hb) hb).
Proof. intros H. destruct hb; exact H. Qed.
Lemma cell_tot hb bk : hb_ok (set_hb_b bk hb) -> wf_sv bk /\ 0 <= b_tas bk /\ 0 <= b_tls bk.
Proof. intros H. split; [exact (hb_ok_sv _ H)|exact (hb_ok_tot _ H)]. Qed.

(* a step that keeps the curve and the share values keeps the cell well-formed, if the totals stay non-negative *)
Lemma hb_ok_step hb bk bk' :
  hb_ok (set_hb_b bk hb) -> b_ir bk' = b_ir bk -> b_asv bk' = b_asv bk -> b_lsv bk' = b_lsv bk ->
  0 <= b_tas bk' -> 0 <= b_tls bk' -> hb_ok (set_hb_b bk' hb).
Proof.
  intros ((A & L & _ & _) & Hp & Hl & Hv & Hf) Ei Ea El T1 T2. unfold hb_ok, valid_curve, wf_bank in *.
  cbn [set_hb_b hb_b hb_tf_bps hb_tf_max] in *. rewrite Ei, Ea, El.
  split; [lia|]. split; [exact Hp|]. split; [exact Hl|]. split; [exact Hv|exact Hf].
Qed.
Lemma hb_ok_keep hb bk bk' :
  hb_ok (set_hb_b bk hb) -> b_ir bk' = b_ir bk -> b_asv bk' = b_asv bk -> b_lsv bk' = b_lsv bk ->
  b_tas bk' = b_tas bk -> b_tls bk' = b_tls bk -> hb_ok (set_hb_b bk' hb).
Proof.
  intros H Ei Ea El T1 T2. destruct (cell_tot _ _ H) as (_ & X1 & X2). apply (hb_ok_step _ bk); try assumption; lia.
Qed.

Lemma gp_cache b pf now b' : update_bank_cache b pf now = Ok b' -> gp_same b b'.
Proof. intros H. apply update_bank_cache_core in H as [-> | ->]; [apply gp_same_refl|apply gp_set_last_update]. Qed.
Lemma hb_ok_cache hb bk pf now bk' :
  hb_ok (set_hb_b bk hb) -> update_bank_cache bk pf now = Ok bk' ->
  hb_ok (set_hb_b bk' hb) /\ NAV bk' = NAV bk /\ b_tas bk' = b_tas bk /\ b_tls bk' = b_tls bk /\ (fees_rep bk -> fees_rep bk').
Proof.
  intros H Hc. destruct (NAV_cache _ _ _ _ Hc) as (N & E1 & E2 & T1 & T2 & _).
  split; [apply (hb_ok_keep _ bk); try assumption; apply update_bank_cache_core in Hc as [-> | ->]; reflexivity|].
  split; [exact N|]. split; [exact T1|]. split; [exact T2|]. intros Hfr. exact (fees_rep_gp _ _ Hfr (gp_cache _ _ _ _ Hc)).
Qed.

(* after the accrual step the cell is well-formed, the obligations have grown by at most the allowance, the totals are
   the old ones and the fee buckets have not shrunk *)
Lemma after_accrue hb pf now bk1 :
  hb_ok hb -> accrue_interest (hb_b hb) pf now = Ok bk1 ->
  hb_ok (set_hb_b bk1 hb) /\ NAV bk1 - NAV (hb_b hb) <= accrual_slack (hb_b hb) bk1 /\
  b_tas bk1 = b_tas (hb_b hb) /\ b_tls bk1 = b_tls (hb_b hb) /\ (fees_rep (hb_b hb) -> fees_rep bk1).
Proof.
  intros (Hw & Hp & Hl & Hv & Hf) H. pose proof Hw as (Ha & Hl0 & Hta & Htl).
  pose proof (NAV_accrue _ _ _ _ Hw Hp Hv H) as (S & W' & P' & V' & _).
  pose proof (accrue_monotone _ _ _ _ Ha Hl0 Hta Htl H) as (_ & M2 & _ & Mg & Mp & _ & T1 & T2 & _).
  split; [|split; [exact S|split; [exact T1|split; [exact T2|unfold fees_rep; lia]]]].
  unfold hb_ok. cbn [set_hb_b hb_b hb_tf_bps hb_tf_max].
  split; [exact W'|]. split; [exact P'|]. split; [lia|]. split; [exact V'|exact Hf].
Qed.
Lemma accrue_tot hb pf now bk1 : hb_ok hb -> accrue_interest (hb_b hb) pf now = Ok bk1 ->
  b_tas bk1 = b_tas (hb_b hb) /\ b_tls bk1 = b_tls (hb_b hb) /\ wf_sv bk1.
Proof.
  intros Hok H. destruct (after_accrue _ _ _ _ Hok H) as (Hok1 & _ & T1 & T2 & _).
  split; [exact T1|]. split; [exact T2|exact (proj1 (cell_tot _ _ Hok1))].
Qed.

(* the pre-fee amount pulled into the vault covers the booked amount *)
Lemma pull_covers hb post pre f :
  hb_ok hb -> 0 <= post -> pre_fee hb post = Ok pre -> tfee hb pre = Ok f -> post * ONE * ONE <= (pre - f) * ONE * ONE.
Proof.
  intros (_ & _ & _ & _ & Hb1 & Hb2) Hp Hpre Hf. apply scale_le. exact (proj1 (pre_fee_covers hb post pre f Hb1 Hb2 Hp Hpre Hf)).
Qed.

(* ---------------------------------------------------------------- one primitive on the located slot of an account *)
(* Each leg: the cell stays well-formed, the obligations move by the amount up to rounding, the frame is kept and the
   account moves with the bank.  The slot is covered by totals ta, tl that need not be the bank's own: in a liquidation
   the other account has moved the same bank in between. *)

Lemma inc_leg hb k bk ta tl la i la1 bl tm delta t bk' bl' :
  hb_ok (set_hb_b bk hb) -> Forall wf_bal la -> pos_le2 ta tl k la -> 0 <= ta -> 0 <= tl <= b_tls bk ->
  located k la i la1 -> nth_res i la1 = Ok bl -> 0 <= delta -> increase_balance bk bl tm delta t = Ok (bk', bl') ->
  hb_ok (set_hb_b bk' hb) /\ NAV bk' - NAV bk <= delta * ONE /\ prim_frame bk bk' /\ moves_with k bk bk' la (set_nth i bl' la1).
Proof.
  intros Hok Wla Hp Ta Tl Hloc Hbl Hd Hinc. destruct (cell_tot _ _ Hok) as (Hsv & T1 & T2).
  destruct (located_le2 _ _ _ _ _ _ _ Hloc Hbl Wla Hp Ta (proj1 Tl)) as (Wbl & _ & _ & Ll & Hact & Hbank & _).
  destruct (NAV_increase _ _ _ _ _ _ _ Hsv Wbl Hd Hinc) as (N & _ & (_ & Wl')).
  pose proof (increase_balance_inv _ _ _ _ _ _ _ Hsv Wbl Hd Hinc) as F. destruct (if_sv _ _ _ _ _ _ F) as [S1 S2].
  pose proof (if_l _ _ _ _ _ _ F) as Fl. pose proof (if_tas _ _ _ _ _ _ F) as Fta. pose proof (if_tls _ _ _ _ _ _ F) as Ftl.
  pose proof (frame_increase _ _ _ _ _ _ _ Hinc) as Fr.
  assert (0 <= ashares bk (inc_a_inc bk bl delta)) by (apply ashares_le; [unfold inc_a_inc; lia|apply Hsv]).
  split; [apply (hb_ok_step _ bk); [exact Hok|apply Fr|exact S1|exact S2|lia|lia]|]. split; [exact N|]. split; [exact Fr|].
  exact (slot_moves _ _ _ _ _ _ _ _ _ _ Wla Hloc Hbl (inc_slot_ok _ _ _ _ _ _ _ _ Hsv Wbl Hact Hbank Hd Hinc)).
Qed.

(* a decrease can only raise the liability total, and leaves what the account holds in other banks alone *)
Lemma dec_leg hb k bk ta tl la i la1 bl tm delta t bk' bl' :
  hb_ok (set_hb_b bk hb) -> Forall wf_bal la -> pos_le2 ta tl k la -> 0 <= ta <= b_tas bk -> 0 <= tl ->
  located k la i la1 -> nth_res i la1 = Ok bl -> 0 <= delta -> decrease_balance bk bl tm delta t = Ok (bk', bl') ->
  hb_ok (set_hb_b bk' hb) /\ delta * ONE - b_asv bk - b_lsv bk < NAV bk - NAV bk' /\ prim_frame bk bk' /\
  moves_with k bk bk' la (set_nth i bl' la1) /\ b_tls bk <= b_tls bk' /\
  (forall ta' tl' k', k' <> k -> 0 <= ta' -> 0 <= tl' -> pos_le2 ta' tl' k' la -> pos_le2 ta' tl' k' (set_nth i bl' la1)).
Proof.
  intros Hok Wla Hp Ta Tl Hloc Hbl Hd Hdec. destruct (cell_tot _ _ Hok) as (Hsv & T1 & T2).
  destruct (located_le2 _ _ _ _ _ _ _ Hloc Hbl Wla Hp (proj1 Ta) Tl) as (Wbl & _ & La & _ & Hact & Hbank & Hkept).
  destruct (NAV_decrease _ _ _ _ _ _ _ Hsv Wbl Hd Hdec) as (N & (Wa' & _)).
  pose proof (decrease_balance_inv _ _ _ _ _ _ _ Hsv Wbl Hd Hdec) as F. destruct (df_sv _ _ _ _ _ _ F) as [S1 S2].
  pose proof (df_a _ _ _ _ _ _ F) as Fa. pose proof (df_tas _ _ _ _ _ _ F) as Fta. pose proof (df_tls _ _ _ _ _ _ F) as Ftl.
  destruct (df_meta _ _ _ _ _ _ F) as (_ & Mb & _).
  pose proof (frame_decrease _ _ _ _ _ _ _ Hdec) as Fr.
  assert (0 <= lshares bk (dec_l_inc bk bl delta)) by (apply lshares_le; [unfold dec_l_inc; lia|apply Hsv]).
  split; [apply (hb_ok_step _ bk); [exact Hok|apply Fr|exact S1|exact S2|lia|lia]|]. split; [exact N|]. split; [exact Fr|].
  split; [exact (slot_moves _ _ _ _ _ _ _ _ _ _ Wla Hloc Hbl (dec_slot_ok _ _ _ _ _ _ _ _ Hsv Wbl Hact Hbank Hd Hdec))|].
  split; [lia|]. intros ta' tl' k' Hk' Ta' Tl' Hp'. apply pos_le2_set_nth; [exact (Hkept _ _ _ Ta' Tl' Hp')|].
  intros _ E. exfalso. congruence.
Qed.

Lemma wall_leg hb k bk ta tl la i bl tm bk' bl' n :
  hb_ok (set_hb_b bk hb) -> Forall wf_bal la -> pos_le2 ta tl k la -> 0 <= ta <= b_tas bk -> 0 <= tl ->
  wrapper_find k la = Ok i -> nth_res i la = Ok bl -> withdraw_all bk bl tm = Ok (bk', bl', n) ->
  hb_ok (set_hb_b bk' hb) /\ n * ONE * ONE <= NAV bk - NAV bk' /\ prim_frame bk bk' /\ moves_with k bk bk' la (set_nth i bl' la).
Proof.
  intros Hok Wla Hp Ta Tl Hi Hbl H. destruct (cell_tot _ _ Hok) as (Hsv & T1 & T2). pose proof (located_find _ _ _ Hi) as Hloc.
  destruct (located_le2 _ _ _ _ _ _ _ Hloc Hbl Wla Hp (proj1 Ta) Tl) as (Wbl & _ & La & _ & Hact & Hbank & _).
  pose proof (withdraw_all_inv _ _ _ _ _ _ Hsv Wbl H) as F. destruct (wa_sv _ _ _ _ _ F) as [S1 S2].
  pose proof (wa_tas _ _ _ _ _ F) as Fta. pose proof (wa_tls _ _ _ _ _ F) as Ftl.
  pose proof (frame_withdraw_all _ _ _ _ _ _ H) as Fr.
  destruct (wall_slot_ok k _ _ _ _ _ _ Hsv Wbl Hact Hbank H) as (da & dl & Hso & _).
  split; [apply (hb_ok_step _ bk); [exact Hok|apply Fr|exact S1|exact S2|lia|lia]|].
  split; [exact (proj1 (NAV_withdraw_all _ _ _ _ _ _ Hsv Wbl H))|]. split; [exact Fr|].
  exact (slot_moves _ _ _ _ _ _ _ _ _ _ Wla Hloc Hbl Hso).
Qed.
Lemma rall_leg hb k bk ta tl la i bl tm bk' bl' n :
  hb_ok (set_hb_b bk hb) -> Forall wf_bal la -> pos_le2 ta tl k la -> 0 <= ta -> 0 <= tl <= b_tls bk ->
  wrapper_find k la = Ok i -> nth_res i la = Ok bl -> repay_all bk bl tm = Ok (bk', bl', n) ->
  hb_ok (set_hb_b bk' hb) /\ NAV bk' - NAV bk < n * ONE * ONE + ONE /\ 0 <= n /\ prim_frame bk bk' /\
  moves_with k bk bk' la (set_nth i bl' la).
Proof.
  intros Hok Wla Hp Ta Tl Hi Hbl H. destruct (cell_tot _ _ Hok) as (Hsv & T1 & T2). pose proof (located_find _ _ _ Hi) as Hloc.
  destruct (located_le2 _ _ _ _ _ _ _ Hloc Hbl Wla Hp Ta (proj1 Tl)) as (Wbl & _ & _ & Ll & Hact & Hbank & _).
  pose proof (repay_all_inv _ _ _ _ _ _ Hsv Wbl H) as F. destruct (ra_sv _ _ _ _ _ F) as [S1 S2].
  pose proof (ra_tas _ _ _ _ _ F) as Fta. pose proof (ra_tls _ _ _ _ _ F) as Ftl.
  pose proof (frame_repay_all _ _ _ _ _ _ H) as Fr.
  destruct (rall_slot_ok k _ _ _ _ _ _ Hsv Wbl Hact Hbank H) as (da & dl & Hso & _).
  split; [apply (hb_ok_step _ bk); [exact Hok|apply Fr|exact S1|exact S2|lia|lia]|].
  split; [exact (proj1 (NAV_repay_all _ _ _ _ _ _ Hsv Wbl H))|]. split; [exact (proj2 (NAV_repay_all _ _ _ _ _ _ Hsv Wbl H))|].
  split; [exact Fr|]. exact (slot_moves _ _ _ _ _ _ _ _ _ _ Wla Hloc Hbl Hso).
Qed.

Lemma fees_rep_frame bk bk' : prim_frame bk bk' -> fees_rep bk -> fees_rep bk'.
Proof. intros (_ & Gp & _) H. exact (fees_rep_gp _ _ H Gp). Qed.

(* the last steps of a single-cell handler: bookkeeping that keeps the totals, cache refresh, vault write, account sort *)
Lemma finish_cell hb kk bk1 bk2 bk2' pf now bk3 V la la2 :
  hb_ok (set_hb_b bk2' hb) -> update_bank_cache bk2' pf now = Ok bk3 ->
  b_tas bk1 = b_tas (hb_b hb) -> b_tls bk1 = b_tls (hb_b hb) -> b_tas bk2' = b_tas bk2 -> b_tls bk2' = b_tls bk2 ->
  moves_with kk bk1 bk2 la la2 ->
  hb_ok (mk_hb bk3 V hb) /\ gap (mk_hb bk3 V hb) = V * ONE * ONE - NAV bk2' /\ (fees_rep bk2' -> fees_rep bk3) /\
  moves_with kk (hb_b hb) bk3 la (sort_balances la2).
Proof.
  intros Hok Hc T1 T2 T3 T4 M. destruct (hb_ok_cache _ _ _ _ _ Hok Hc) as (Hok3 & N & C1 & C2 & Fc).
  split; [exact Hok3|]. split; [unfold gap, gapb; cbn [mk_hb set_hb_b set_hb_vault hb_b hb_vault]; lia|]. split; [exact Fc|].
  apply moves_sort. apply (moves_frame _ bk1 bk2); [exact M|exact T1|exact T2|lia|lia|exact (hb_ok_sv _ Hok3)].
Qed.

(* ---------------------------------------------------------------- deposit *)
Lemma deposit_step w a b amount up hb hb' ac ac' :
  0 <= amount -> deposit_facts w a b amount up hb hb' ac ac' -> hb_ok hb -> Forall wf_bal (ha_la ac) -> pos_le (hb_b hb) (bank_pk b) (ha_la ac) ->
  hb_ok hb' /\ (fees_rep (hb_b hb) -> fees_rep (hb_b hb')) /\ gap hb - acc_slack w hb <= gap hb' /\
  moves_with (bank_pk b) (hb_b hb) (hb_b hb') (ha_la ac) (ha_la ac').
Proof.
  intros Hamt (bk1 & dep & Hacc & _ & _ & Hdep & Hcase) Hok Hwf Hpos. unfold acc_slack. rewrite Hacc.
  apply (deposit_amount_bound _ _ _ _ Hamt) in Hdep.
  destruct (after_accrue _ _ _ _ Hok Hacc) as (Hok1 & Hs & T1 & T2 & Fa). destruct (hb_ok_tot _ Hok) as (Ta & Tl).
  destruct Hcase as [(_ & -> & ->) | (Hd & i & la1 & bl & bk2 & bl2 & pre & f & bk3 & Hloc & Hbl & Hinc & Hpre & Hf & Hcache & -> & ->)].
  - split; [exact Hok1|]. split; [exact Fa|]. split; [unfold gap, gapb; cbn [set_hb_b hb_b hb_vault]; lia|].
    apply moves_none; [exact (hb_ok_sv _ Hok1)|exact Hwf|exact T1|exact T2].
  - destruct (inc_leg _ _ _ _ _ _ _ _ _ _ _ _ _ _ Hok1 Hwf Hpos Ta ltac:(lia) (located_create _ _ _ _ _ _ Hloc) Hbl (of_int_nonneg dep ltac:(lia)) Hinc)
      as (Hok2 & N & Fr & M).
    destruct (finish_cell _ _ _ _ _ _ _ _ (hb_vault hb + pre - f) _ _ Hok2 Hcache T1 T2 eq_refl eq_refl M) as (Hok3 & G & Fc & M3).
    split; [exact Hok3|]. split; [intros Hfr; exact (Fc (fees_rep_frame _ _ Fr (Fa Hfr)))|]. split; [|exact M3].
    rewrite G. pose proof (pull_covers hb dep pre f Hok ltac:(lia) Hpre Hf). unfold gap, gapb, of_int in *. lia.
Qed.

(* ---------------------------------------------------------------- withdraw *)
Lemma withdraw_core_step w b amount all hb hb' ac ac' :
  0 <= amount -> withdraw_core w b amount all hb hb' ac ac' -> hb_ok hb -> Forall wf_bal (ha_la ac) ->
  pos_le (hb_b hb) (bank_pk b) (ha_la ac) ->
  hb_ok hb' /\ (fees_rep (hb_b hb) -> fees_rep (hb_b hb')) /\ gap hb - acc_slack w hb - sv_slack w hb <= gap hb' /\
  moves_with (bank_pk b) (hb_b hb) (hb_b hb') (ha_la ac) (ha_la ac').
Proof.
  intros Hamt (bk1 & i & bl & bk2 & bl2 & pre & paid & bk3 & Hacc & Hi & Hbl & Hprim & Hpaid & Hle & Hcache & -> & ->) Hok Hwf Hpos.
  unfold acc_slack, sv_slack. rewrite Hacc.
  destruct (after_accrue _ _ _ _ Hok Hacc) as (Hok1 & Hs & T1 & T2 & Fa). destruct (hb_ok_tot _ Hok) as (Ta & Tl).
  destruct (cell_tot _ _ Hok1) as ((Sa & Sl) & _).
  assert (Hpp : paid <= pre) by (subst paid; destruct (get_flag _ _); lia).
  (* the primitive: full or partial *)
  assert (Hp : hb_ok (set_hb_b bk2 hb) /\ pre * ONE * ONE - b_asv bk1 - b_lsv bk1 < NAV bk1 - NAV bk2 /\ prim_frame bk1 bk2 /\
               moves_with (bank_pk b) bk1 bk2 (ha_la ac) (set_nth i bl2 (ha_la ac))).
  { destruct all.
    - destruct (wall_leg _ _ _ _ _ _ _ _ _ _ _ _ Hok1 Hwf Hpos ltac:(lia) Tl Hi Hbl Hprim) as (Hok2 & N & Fr & M).
      split; [exact Hok2|]. split; [lia|]. split; [exact Fr|exact M].
    - destruct Hprim as (Hpre & Hdec). destruct Hok as (_ & _ & _ & _ & Hb1 & Hb2).
      pose proof (of_int_nonneg _ (pre_fee_nonneg _ _ _ Hb1 Hb2 Hamt Hpre)) as Hdn.
      destruct (dec_leg _ _ _ _ _ _ _ _ _ _ _ _ _ _ Hok1 Hwf Hpos ltac:(lia) Tl (located_find _ _ _ Hi) Hbl Hdn Hdec)
        as (Hok2 & N & Fr & M & _).
      split; [exact Hok2|]. split; [exact N|]. split; [exact Fr|exact M]. }
  destruct Hp as (Hok2 & N & Fr & M).
  destruct (finish_cell _ _ _ _ _ _ _ _ (hb_vault hb - paid) _ _ Hok2 Hcache T1 T2 eq_refl eq_refl M) as (Hok3 & G & Fc & M3).
  split; [exact Hok3|]. split; [intros Hfr; exact (Fc (fees_rep_frame _ _ Fr (Fa Hfr)))|]. split; [|exact M3].
  rewrite G. pose proof (scale_le _ _ Hpp). unfold gap, gapb. lia.
Qed.

Lemma withdraw_core_gap w b amount all hb hb' ac ac' :
  0 <= amount -> withdraw_core w b amount all hb hb' ac ac' -> hb_ok hb -> Forall wf_bal (ha_la ac) ->
  pos_le (hb_b hb) (bank_pk b) (ha_la ac) ->
  hb_ok hb' /\ Forall wf_bal (ha_la ac') /\ gap hb - acc_slack w hb - sv_slack w hb <= gap hb'.
Proof.
  intros Hamt F Hok Hwf Hpos. destruct (withdraw_core_step _ _ _ _ _ _ _ _ Hamt F Hok Hwf Hpos) as (O & _ & G & (_ & W & _)). auto.
Qed.
Lemma withdraw_gap w w' a b amount all hb hb' ac ac' :
  0 <= amount -> withdraw_facts w w' a b amount all hb hb' ac ac' -> hb_ok hb -> Forall wf_bal (ha_la ac) ->
  pos_le (hb_b hb) (bank_pk b) (ha_la ac) ->
  hb_ok hb' /\ Forall wf_bal (ha_la ac') /\ gap hb - acc_slack w hb - sv_slack w hb <= gap hb'.
Proof. intros Hamt F. apply (withdraw_core_gap w b amount all); [exact Hamt | eapply withdraw_facts_core; exact F]. Qed.

(* ---------------------------------------------------------------- borrow *)
Lemma orig_fee_inv hb pre delta ofee : 0 <= pre -> orig_fee_of hb pre = Ok (delta, ofee) ->
  delta = of_int pre + ofee /\ 0 <= ofee.
Proof.
  intros Hp. unfold orig_fee_of. destruct (hb_orig_fee hb =? 0).
  - intros H. apply Ok_inj, pair_equal_spec in H as [<- <-]. lia.
  - intros H. bind_inv H as f Hf. bind_inv H as n Hn. bind_inv H as d Hd.
    apply Ok_inj, pair_equal_spec in H as [<- <-]. apply uadd_inv in Hd as [-> _].
    apply math_ok, to_u64_inv in Hn as [En Hn]. split; [reflexivity|].
    pose proof ONE_pos. destruct (Z_lt_le_dec f 0) as [Hneg|]; [|lia].
    exfalso. assert (f / ONE < 0) by (apply Z.div_lt_upper_bound; lia). lia.
Qed.

Lemma clamp_le_inrange x : I128_MIN <= x -> clamp I128_MIN I128_MAX x <= x.
Proof. intros H. unfold clamp. rewrite I128_MIN_val, I128_MAX_val in *. lia. Qed.
Lemma clamp_ge_min x : I128_MIN <= clamp I128_MIN I128_MAX x.
Proof. unfold clamp. rewrite I128_MIN_val, I128_MAX_val. lia. Qed.

Lemma book_orig_fee_nav pf ofee bk bk' : pf_ok pf -> 0 <= ofee -> fees_rep bk -> book_orig_fee pf ofee bk = Ok bk' ->
  NAV bk' - NAV bk <= ofee * ONE /\ bank_static bk bk' /\ b_asv bk' = b_asv bk /\ b_lsv bk' = b_lsv bk /\
  b_tas bk' = b_tas bk /\ b_tls bk' = b_tls bk /\ fees_rep bk'.
Proof.
  intros (R0 & R1) Ho (G & P) H. destruct (book_orig_fee_cases _ _ _ _ H) as [-> | [-> | ->]].
  - split; [pose proof ONE_pos; nia|]. split; [apply bank_static_refl|].
    repeat split; try reflexivity; assumption.
  - pose proof (clamp_le_inrange (b_grp bk + ofee) ltac:(lia)). pose proof (clamp_ge_min (b_grp bk + ofee)).
    set (c := clamp I128_MIN I128_MAX (b_grp bk + ofee)) in *.
    split; [unfold NAV, Dv, Lv, Fv; cbn [set_b_grp b_tas b_asv b_tls b_lsv b_ins b_grp b_prog]; pose proof ONE_pos; nia|].
    split; [apply static_set_grp|].
    unfold fees_rep. cbn [set_b_grp b_tas b_asv b_tls b_lsv b_ins b_grp b_prog]. repeat split; try reflexivity; assumption.
  - assert (0 <= ofee * pf_rate pf / ONE <= ofee) by (apply mul_div_le; [apply ONE_pos|lia|lia]).
    set (pfa := ofee * pf_rate pf / ONE) in *.
    pose proof (clamp_le_inrange (ofee - pfa) ltac:(rewrite I128_MIN_val; lia)).
    assert (0 <= clamp I128_MIN I128_MAX (ofee - pfa)) by (unfold clamp; rewrite I128_MIN_val, I128_MAX_val; lia).
    set (rest := clamp I128_MIN I128_MAX (ofee - pfa)) in *.
    pose proof (clamp_le_inrange (b_grp bk + rest) ltac:(lia)). pose proof (clamp_ge_min (b_grp bk + rest)).
    pose proof (clamp_le_inrange (b_prog bk + pfa) ltac:(lia)). pose proof (clamp_ge_min (b_prog bk + pfa)).
    set (cg := clamp I128_MIN I128_MAX (b_grp bk + rest)) in *. set (cp := clamp I128_MIN I128_MAX (b_prog bk + pfa)) in *.
    split; [unfold NAV, Dv, Lv, Fv; cbn [set_b_grp set_b_prog b_tas b_asv b_tls b_lsv b_ins b_grp b_prog]; pose proof ONE_pos; nia|].
    split; [eapply bank_static_trans; [apply static_set_grp|apply static_set_prog]|].
    unfold fees_rep. cbn [set_b_grp set_b_prog b_tas b_asv b_tls b_lsv b_ins b_grp b_prog]. repeat split; try reflexivity; assumption.
Qed.

Lemma borrow_step w w' a b amount hb hb' ac ac' :
  0 <= amount -> borrow_facts w w' a b amount hb hb' ac ac' -> hb_ok hb -> fees_rep (hb_b hb) -> pf_ok (hw_pf w) ->
  Forall wf_bal (ha_la ac) -> pos_le (hb_b hb) (bank_pk b) (ha_la ac) ->
  hb_ok hb' /\ fees_rep (hb_b hb') /\ gap hb - acc_slack w hb - sv_slack w hb <= gap hb' /\
  moves_with (bank_pk b) (hb_b hb) (hb_b hb') (ha_la ac) (ha_la ac').
Proof.
  intros Hamt (bk1 & i & la1 & bl & pre & delta & ofee & bk2 & bl2 & bk4 & bk5 & Hacc & _ & _ & _ & Hloc & Hbl & Hpre & Hof & Hdec & Hle & Hbook & Hcache & -> & -> & _)
         Hok Hfr Hpf Hwf Hpos.
  unfold acc_slack, sv_slack. rewrite Hacc.
  destruct (after_accrue _ _ _ _ Hok Hacc) as (Hok1 & Hs & T1 & T2 & Fa). destruct (hb_ok_tot _ Hok) as (Ta & Tl).
  pose proof Hok as (_ & _ & _ & _ & Hb1 & Hb2).
  pose proof (pre_fee_nonneg _ _ _ Hb1 Hb2 Hamt Hpre) as Hp0.
  destruct (orig_fee_inv _ _ _ _ Hp0 Hof) as (-> & Ho0).
  assert (Hdn : 0 <= of_int pre + ofee) by (pose proof (of_int_nonneg _ Hp0); lia).
  destruct (dec_leg _ _ _ _ _ _ _ _ _ _ _ _ _ _ Hok1 Hwf Hpos ltac:(lia) Tl (located_create _ _ _ _ _ _ Hloc) Hbl Hdn Hdec) as (Hok2 & N & Fr & M & _).
  destruct (book_orig_fee_nav _ _ _ _ Hpf Ho0 (fees_rep_frame _ _ Fr (Fa Hfr)) Hbook) as (N4 & St4 & E1 & E2 & B1 & B2 & Hfr4).
  pose proof (hb_ok_keep _ _ _ Hok2 (proj1 St4) E1 E2 B1 B2) as Hok4.
  destruct (finish_cell _ _ _ _ _ _ _ _ (hb_vault hb - pre) _ _ Hok4 Hcache T1 T2 B1 B2 M) as (Hok5 & G & Fc & M5).
  split; [exact Hok5|]. split; [exact (Fc Hfr4)|]. split; [|exact M5].
  rewrite G. unfold gap, gapb, of_int in *. lia.
Qed.

(* ---------------------------------------------------------------- repay *)
Lemma mark_core bk : let bk' := mark_tokenless_complete bk in
  NAV bk' = NAV bk /\ b_asv bk' = b_asv bk /\ b_lsv bk' = b_lsv bk /\ b_tas bk' = b_tas bk /\ b_tls bk' = b_tls bk /\
  b_ir bk' = b_ir bk /\ b_grp bk' = b_grp bk /\ b_prog bk' = b_prog bk.
Proof. unfold mark_tokenless_complete. destruct (_ && _); cbn; repeat split; reflexivity. Qed.

Lemma repay_step w a b amount all hb hb' ac ac' :
  0 <= amount -> repay_facts w a b amount all hb hb' ac ac' -> hb_ok hb ->
  Forall wf_bal (ha_la ac) -> pos_le (hb_b hb) (bank_pk b) (ha_la ac) ->
  hb_ok hb' /\ (fees_rep (hb_b hb) -> fees_rep (hb_b hb')) /\
  (gap hb - acc_slack w hb - (if all then ONE else 0) <= gap hb' \/ tokenless_writeoff w hb all) /\
  moves_with (bank_pk b) (hb_b hb) (hb_b hb') (ha_la ac) (ha_la ac').
Proof.
  intros Hamt (bk1 & i & bl & bk2 & bl2 & post & V' & bk5 & Hacc & _ & Hi & Hbl & Hprim & Htok & Hcache & -> & ->) Hok Hwf Hpos.
  unfold acc_slack. rewrite Hacc.
  destruct (after_accrue _ _ _ _ Hok Hacc) as (Hok1 & Hs & T1 & T2 & Fa). destruct (hb_ok_tot _ Hok) as (Ta & Tl).
  pose proof (mark_core bk2) as (Nm & Em1 & Em2 & Tm1 & Tm2 & Im & Gm & Pm). cbv zeta in *.
  (* the primitive: full or partial *)
  assert (Hp : hb_ok (set_hb_b bk2 hb) /\ 0 <= post /\ NAV bk2 - NAV bk1 < post * ONE * ONE + (if all then ONE else 0) + (if all then 0 else 1) /\
               prim_frame bk1 bk2 /\ moves_with (bank_pk b) bk1 bk2 (ha_la ac) (set_nth i bl2 (ha_la ac))).
  { destruct all.
    - destruct (rall_leg _ _ _ _ _ _ _ _ _ _ _ _ Hok1 Hwf Hpos Ta ltac:(lia) Hi Hbl Hprim) as (Hok2 & N & Hn0 & Fr & M).
      split; [exact Hok2|]. split; [exact Hn0|]. split; [lia|]. split; [exact Fr|exact M].
    - destruct Hprim as (-> & Hinc). pose proof (of_int_nonneg _ Hamt) as Hdn.
      destruct (inc_leg _ _ _ _ _ _ _ _ _ _ _ _ _ _ Hok1 Hwf Hpos Ta ltac:(lia) (located_find _ _ _ Hi) Hbl Hdn Hinc)
        as (Hok2 & N & Fr & M).
      split; [exact Hok2|]. split; [exact Hamt|]. split; [unfold of_int in N; lia|]. split; [exact Fr|exact M]. }
  destruct Hp as (Hok2 & Hpost & N1 & Fr & M).
  pose proof (hb_ok_keep _ _ _ Hok2 Im Em1 Em2 Tm1 Tm2) as Hokm.
  destruct (finish_cell _ _ _ _ _ _ _ _ V' _ _ Hokm Hcache T1 T2 Tm1 Tm2 M) as (Hok5 & G & Fc & M5).
  split; [exact Hok5|]. split; [intros Hfr; exact (Fc (fees_rep_gp _ _ (fees_rep_frame _ _ Fr (Fa Hfr)) (conj Gm Pm)))|].
  split; [|exact M5].
  destruct Htok as [(Hr & Hfl & Hall & ->) | (pre & f & Hpre & Hf & ->)].
  - right. split; [exact Hr|]. split; [|exact Hall]. destruct Fr as ((_ & Hflags & _) & _).
    rewrite Hflags in Hfl. pose proof (cs_flags _ _ (accrue_frame _ _ _ _ Hacc)) as Ff. rewrite Ff in Hfl. exact Hfl.
  - left. rewrite G, Nm. pose proof (pull_covers hb post pre f Hok Hpost Hpre Hf) as Hsc.
    unfold gap, gapb. clear - Hs N1 Hsc. destruct all; lia.
Qed.

Lemma repay_gap w a b amount all hb hb' ac ac' :
  0 <= amount -> repay_facts w a b amount all hb hb' ac ac' -> hb_ok hb ->
  Forall wf_bal (ha_la ac) -> pos_le (hb_b hb) (bank_pk b) (ha_la ac) ->
  hb_ok hb' /\ Forall wf_bal (ha_la ac') /\
  (gap hb - acc_slack w hb - (if all then ONE else 0) <= gap hb' \/ tokenless_writeoff w hb all).
Proof.
  intros Hamt F Hok Hwf Hpos. destruct (repay_step _ _ _ _ _ _ _ _ _ Hamt F Hok Hwf Hpos) as (O & _ & G & (_ & W & _)). auto.
Qed.

(* ---------------------------------------------------------------- close_balance / accrue / collect fees *)
Lemma close_step w a b hb hb' ac ac' :
  close_facts w a b hb hb' ac ac' -> hb_ok hb -> Forall wf_bal (ha_la ac) -> pos_le (hb_b hb) (bank_pk b) (ha_la ac) ->
  hb_ok hb' /\ (fees_rep (hb_b hb) -> fees_rep (hb_b hb')) /\ gap hb - acc_slack w hb <= gap hb' /\
  moves_with (bank_pk b) (hb_b hb) (hb_b hb') (ha_la ac) (ha_la ac').
Proof.
  intros (bk1 & bk2 & i & bl & bk3 & bl3 & Hacc & _ & Hcache & Hi & Hbl & Hcl & -> & ->) Hok Hwf Hpos.
  unfold acc_slack. rewrite Hacc.
  destruct (after_accrue _ _ _ _ Hok Hacc) as (Hok1 & Hs & T1 & T2 & Fa).
  destruct (hb_ok_cache _ _ _ _ _ Hok1 Hcache) as (Hok2 & N2 & C1 & C2 & Fc).
  destruct (cell_tot _ _ Hok2) as (Hsv2 & _).
  pose proof (located_find _ _ _ Hi) as Hloc.
  destruct (slot_located _ _ _ _ _ Hloc Hbl Hwf) as (Hact & Hbank & Wbl & _ & _).
  pose proof (NAV_close_balance _ _ _ _ _ Hsv2 Wbl Hcl) as N3.
  destruct (close_balance_inv _ _ _ _ _ Hsv2 Wbl Hcl) as (_ & C3 & C4 & C5 & C6 & _).
  pose proof (frame_close_balance _ _ _ _ _ Hcl) as Fr.
  destruct (close_slot_ok (bank_pk b) _ _ _ _ _ Hsv2 Wbl Hact Hbank Hcl) as (da & dl & Hso & _).
  pose proof (hb_ok_keep _ _ _ Hok2 (proj1 (proj1 Fr)) C5 C6 C3 C4) as Hok3.
  split; [exact Hok3|]. split; [intros Hfr; exact (fees_rep_frame _ _ Fr (Fc (Fa Hfr)))|].
  split; [unfold gap, gapb; cbn [set_hb_b hb_b hb_vault]; lia|].
  pose proof (slot_moves _ _ _ _ _ _ _ _ _ _ Hwf Hloc Hbl Hso) as M.
  apply moves_sort. apply (moves_frame _ bk2 bk3); [exact M|lia|lia|reflexivity|reflexivity|exact (hb_ok_sv _ Hok3)].
Qed.

Lemma accrue_step w hb bk1 bk2 :
  accrue_interest (hb_b hb) (hw_pf w) (hw_now w) = Ok bk1 -> update_bank_cache bk1 (hw_pf w) (hw_now w) = Ok bk2 -> hb_ok hb ->
  hb_ok (set_hb_b bk2 hb) /\ (fees_rep (hb_b hb) -> fees_rep bk2) /\ gap hb - acc_slack w hb <= gap (set_hb_b bk2 hb) /\
  b_tas bk2 = b_tas (hb_b hb) /\ b_tls bk2 = b_tls (hb_b hb).
Proof.
  intros Hacc Hcache Hok. unfold acc_slack. rewrite Hacc.
  destruct (after_accrue _ _ _ _ Hok Hacc) as (Hok1 & Hs & T1 & T2 & Fa).
  destruct (hb_ok_cache _ _ _ _ _ Hok1 Hcache) as (Hok2 & N2 & C1 & C2 & Fc).
  split; [exact Hok2|]. split; [intros Hfr; exact (Fc (Fa Hfr))|].
  split; [unfold gap, gapb; cbn [set_hb_b hb_b hb_vault]; lia|]. split; lia.
Qed.

(* collecting fees moves whole tokens out of the vault and the same amount out of the fee buckets *)
Lemma collect_step w b w' :
  h_collect_fees w b = Ok w' ->
  exists hb hb', effb w w' b hb hb' /\ fees_rep (hb_b hb') /\
    b_tas (hb_b hb') = b_tas (hb_b hb) /\ b_tls (hb_b hb') = b_tls (hb_b hb) /\ (hb_ok hb -> hb_ok hb' /\ gap hb' = gap hb).
Proof.
  intros H. destruct (collect_fees_spec _ _ _ H) as (hb & fi & fg & fp & S). cbv zeta in S.
  destruct S as (Hb & _ & _ & _ & G & P & ->). exists hb. eexists.
  split; [unfold effb; repeat split; try reflexivity; exact Hb|]. split; [split; assumption|].
  split; [reflexivity|]. split; [reflexivity|]. intros Hok. split; [exact Hok|].
  unfold gap, gapb, NAV, Dv, Lv, Fv.
  cbn [hb_b hb_vault set_hb_b set_hb_vault set_hb_insv set_hb_feev set_hb_feeata b_ins b_grp b_prog b_tas b_tls b_asv b_lsv set_b_ins set_b_grp set_b_prog].
  set (mi := fint (fmin (b_ins (hb_b hb)) (of_int (hb_vault hb)))) in *.
  set (mg := fint (fmin (b_grp (hb_b hb)) (of_int (hb_vault hb) - mi))) in *.
  set (mp := fint (fmin (b_prog (hb_b hb)) (of_int (hb_vault hb) - mi - mg))) in *.
  assert (Ei : mi / ONE * ONE * ONE = mi * ONE) by (unfold mi; rewrite fint_whole; reflexivity).
  assert (Eg : mg / ONE * ONE * ONE = mg * ONE) by (unfold mg; rewrite fint_whole; reflexivity).
  assert (Ep : mp / ONE * ONE * ONE = mp * ONE) by (unfold mp; rewrite fint_whole; reflexivity).
  lia.
Qed.

(* ---------------------------------------------------------------- bankruptcy *)
Lemma socialize_alive b loss b' : wf_sv b -> 0 <= b_tas b -> 0 <= loss -> socialize_loss b loss = Ok (b', false) ->
  0 < b_asv b' /\ NAV b' - NAV b <= - loss * ONE /\ b_lsv b' = b_lsv b /\ b_tas b' = b_tas b /\ b_tls b' = b_tls b /\
  b_grp b' = b_grp b /\ b_prog b' = b_prog b.
Proof.
  intros Hsv Ht Hloss H. destruct (socialize_inv _ _ _ _ Hsv Ht H) as (nsv & -> & _ & K). destruct (K eq_refl) as (Hp & Hq).
  pose proof (Z.mul_div_le (b_tas b * b_asv b) ONE ONE_pos).
  split; [exact Hp|]. split; [|repeat split; reflexivity].
  unfold NAV, Dv, Lv, Fv. cbn [set_b_asv b_asv b_lsv b_tas b_tls b_ins b_grp b_prog]. lia.
Qed.

Lemma bankruptcy_step w a b hb hb' ac ac' :
  bankruptcy_facts w a b hb hb' ac ac' -> hb_ok hb -> Forall wf_bal (ha_la ac) -> pos_le (hb_b hb) (bank_pk b) (ha_la ac) ->
  (hb_ok hb' /\ (fees_rep (hb_b hb) -> fees_rep (hb_b hb')) /\ gap hb - acc_slack w hb <= gap hb' /\
   moves_with (bank_pk b) (hb_b hb) (hb_b hb') (ha_la ac) (ha_la ac'))
  \/ b_op_state (hb_b hb') = OP_KILLED.
Proof.
  intros (ps & A & L & bk1 & i & bl & bad & avail_n & covered & loss & ce & cov_n & pre & f & bk2 & kill & bk3 & bl3 & bk4 &
          _ & _ & _ & _ & Hacc & Hi & Hbl & Hbad & Hthr & _ & Hcov & Hloss & Hce & Hcn & Hpre & _ & Hf & Hsoc & Hinc & Hcache & -> & ->) Hok Hwf Hpos.
  destruct kill; [right; reflexivity|left].
  unfold acc_slack. rewrite Hacc.
  destruct (after_accrue _ _ _ _ Hok Hacc) as (Hok1 & Hs & T1 & T2 & Fa). destruct (hb_ok_tot _ Hok) as (Ta & Tl).
  destruct (cell_tot _ _ Hok1) as (Hsv1 & Ta1 & _).
  assert (Hloc : located (bank_pk b) (ha_la ac) i (ha_la ac)) by (apply located_find; unfold wrapper_find; rewrite Hi; reflexivity).
  assert (Hthr0 : 0 < ZERO_AMOUNT_THRESHOLD) by reflexivity.
  assert (Hb0 : 0 <= bad) by lia.
  assert (Hlc : loss = bad - covered /\ 0 <= loss) by (subst loss covered; unfold fmax, fmin; lia). destruct Hlc as (Hlc & Hl0).
  (* the depositors take the uncovered loss: only the asset share value moves *)
  destruct (socialize_alive _ _ _ Hsv1 Ta1 Hl0 Hsoc) as (Hasv2 & N2 & E2 & S1 & S2 & _).
  pose proof (frame_socialize _ _ _ _ Hsoc) as Fr2.
  assert (Hok2 : hb_ok (set_hb_b bk2 hb)).
  { destruct Hok1 as ((A1 & L1 & _ & _) & P1 & Lp1 & (V1 & V2 & V3) & Hf1 & Hf2). cbn [set_hb_b hb_b hb_tf_bps hb_tf_max] in *.
    unfold hb_ok, valid_curve, wf_bank. cbn [set_hb_b hb_b hb_tf_bps hb_tf_max]. rewrite (proj1 (proj1 Fr2)), E2, S1, S2.
    split; [repeat split; lia|]. split; [exact Hasv2|]. split; [exact Lp1|]. split; [exact (conj V1 (conj V2 V3))|]. split; assumption. }
  (* the bad debt is written off the position *)
  destruct (inc_leg _ _ _ _ _ _ _ _ _ _ _ _ _ _ Hok2 Hwf Hpos Ta ltac:(lia) Hloc Hbl Hb0 Hinc) as (Hok3 & N3 & Fr3 & M).
  destruct (hb_ok_cache _ _ _ _ _ Hok3 Hcache) as (Hok4 & N4 & C1 & C2 & Fc).
  split; [exact Hok4|]. split; [intros Hfr; exact (Fc (fees_rep_frame _ _ Fr3 (fees_rep_frame _ _ Fr2 (Fa Hfr))))|].
  split.
  - apply cceil_inv in Hce. apply to_u64_inv in Hcn as (Hcn & Hcr).
    pose proof (pull_covers hb cov_n pre f Hok ltac:(lia) Hpre Hf) as Hsc.
    pose proof ONE_pos as HO.
    assert (Hce2 : covered <= cov_n * ONE).
    { pose proof (Z.div_mod covered ONE ltac:(lia)). pose proof (Z.mod_pos_bound covered ONE HO).
      destruct (covered mod ONE =? 0) eqn:Em; subst ce cov_n; [|rewrite Z.div_add_l, Z.div_same by lia]; lia. }
    unfold gap, gapb. cbn [set_hb_b set_hb_vault set_hb_insv hb_b hb_vault]. rewrite N4. clear - Hs N2 N3 Hsc Hce2 Hlc HO. nia.
  - apply (moves_frame _ bk2 bk3); [exact M|lia|lia|exact C1|exact C2|exact (hb_ok_sv _ Hok4)].
Qed.

(* ---------------------------------------------------------------- liquidation: four legs over two banks and two accounts *)
Lemma ffrac_split x n : 0 <= x -> to_u64_checked x = Ok n -> x = n * ONE + ffrac x /\ 0 <= ffrac x /\ 0 <= n.
Proof.
  intros Hx H. apply to_u64_inv in H as (-> & Hr). pose proof ONE_pos as HO.
  unfold ffrac. pose proof (Z.div_mod x ONE ltac:(lia)). pose proof (Z.mod_pos_bound x ONE HO). lia.
Qed.

Lemma liquidate_step load w r e ab lb n w' ha hl ee er ba1 bl1 ps0 ps1 h0 A0 L0 h1 ap lp v1 v2 q_liq q_fin i1 i2 i3 i4 la1 la3
    b1 b1' b2 b2' b3 b3' b4 b4' bl2 ba2 ba3 bl3 ee3 er3 ha' hl' f ins_n ba4 bl5 :
  liquidate_run load w r e ab lb n w' ha hl ee er ba1 bl1 ps0 ps1 h0 A0 L0 h1 ap lp v1 v2 q_liq q_fin i1 i2 i3 i4 la1 la3
                b1 b1' b2 b2' b3 b3' b4 b4' bl2 ba2 ba3 bl3 ee3 er3 ha' hl' f ins_n ba4 bl5 ->
  hb_ok ha -> hb_ok hl ->
  Forall wf_bal (ha_la ee) -> pos_le (hb_b ha) (bank_pk ab) (ha_la ee) -> pos_le (hb_b hl) (bank_pk lb) (ha_la ee) ->
  Forall wf_bal (ha_la er) -> pos_le (hb_b ha) (bank_pk ab) (ha_la er) -> pos_le (hb_b hl) (bank_pk lb) (ha_la er) ->
  hb_ok ha' /\ hb_ok hl' /\ (fees_rep (hb_b ha) -> fees_rep (hb_b ha')) /\ (fees_rep (hb_b hl) -> fees_rep (hb_b hl')) /\
  gap ha - acc_slack w ha - sv_slack w ha <= gap ha' /\
  gap hl - acc_slack w hl - sv_slack w hl <= gap hl' /\
  (* the liquidatee moves with the asset bank, then with the liability bank; the liquidator the other way round *)
  exists laE laR,
    moves_with (bank_pk ab) (hb_b ha) ba2 (ha_la ee) laE /\ moves_with (bank_pk lb) bl2 (hb_b hl') laE (ha_la ee3) /\
    moves_with (bank_pk lb) (hb_b hl) bl2 (ha_la er) laR /\ moves_with (bank_pk ab) ba2 (hb_b ha') laR (ha_la er3).
Proof.
  intros [_ (Hamt & Hne & _) _ _ _ (Hacca & Haccl) _ _ (_ & _ & _ & _ & Hqf0 & Hif0) (Hloc1 & Hb1 & Hdec1) (Hi2 & Hb2 & _ & Hdec2)
          (Hloc3 & Hb3 & Hinc3) (Hi4 & Hb4 & Hinc4) (Hinsn & _) (Hca & Hcl) -> -> -> -> _ _ _] Hoka Hokl Wee Pea Pel Wer Pra Prl.
  unfold acc_slack, sv_slack. rewrite Hacca, Haccl.
  destruct (after_accrue _ _ _ _ Hoka Hacca) as (Hoka1 & Hsa & Ta1 & Ta2 & Faa). destruct (hb_ok_tot _ Hoka) as (Taa & Tla).
  destruct (after_accrue _ _ _ _ Hokl Haccl) as (Hokl1 & Hsl & Tl1 & Tl2 & Fal). destruct (hb_ok_tot _ Hokl) as (Tal & Tll).
  assert (Hq1 : 0 <= q_liq) by lia.
  pose proof (of_int_nonneg n ltac:(lia)) as Ham0.
  cbn [sort_acct ha_la] in *. set (S := sort_balances (ha_la ee)) in *.
  assert (Wee1 : Forall wf_bal S) by (apply Forall_sort; exact Wee).
  pose proof (pos_le2_sort _ _ _ _ Pea) as Peas. pose proof (pos_le2_sort _ _ _ _ Pel) as Pels. fold S in Peas, Pels.
  pose proof (bank_pk_neq _ _ Hne) as Hpkne.
  (* leg 1: the liquidator's position in the liability bank decreases by q_liq *)
  destruct (dec_leg _ _ _ _ _ _ _ _ _ _ _ _ _ _ Hokl1 Wer Prl ltac:(lia) Tll (located_create _ _ _ _ _ _ Hloc1) Hb1 Hq1 Hdec1) as (Hokl2 & Nl2 & Frl2 & M1 & Tl2' & O1).
  (* leg 2: the liquidatee's asset position decreases by the seized amount *)
  destruct (dec_leg _ _ _ _ _ _ _ _ _ _ _ _ _ _ Hoka1 Wee1 Peas ltac:(lia) Tla (located_find _ _ _ Hi2) Hb2 Ham0 Hdec2)
    as (Hoka2 & Na2 & Fra2 & M2 & Tla2 & O2).
  (* leg 3: the liquidator's position in the asset bank increases by the seized amount *)
  destruct (inc_leg _ _ _ _ _ _ _ _ _ _ _ _ _ _ Hoka2 (proj1 (proj2 M1)) (O1 _ _ _ Hpkne Taa Tla Pra) Taa ltac:(lia) (located_create _ _ _ _ _ _ Hloc3) Hb3 Ham0 Hinc3)
    as (Hoka3 & Na3 & Fra3 & M3).
  (* leg 4: the liquidatee's liability decreases by q_fin *)
  destruct (inc_leg _ _ _ _ _ _ _ _ _ _ _ _ _ _ Hokl2 (proj1 (proj2 M2)) (O2 _ _ _ (not_eq_sym Hpkne) Tal Tll Pels) Tal ltac:(lia)
              (located_find _ _ _ Hi4) Hb4 Hqf0 Hinc4) as (Hokl3 & Nl3 & Frl3 & M4).
  (* bookkeeping: insurance dust, cache *)
  destruct (hb_ok_cache _ _ _ _ _ Hoka3 Hca) as (Hoka4 & Na4 & Ca1 & Ca2 & Fca).
  pose proof (hb_ok_keep _ _ (set_b_ins (b_ins bl3 + ffrac (q_liq - q_fin)) bl3) Hokl3 eq_refl eq_refl eq_refl eq_refl eq_refl) as Hokl4.
  destruct (hb_ok_cache _ _ _ _ _ Hokl4 Hcl) as (Hokl5 & Nl5 & Cl1 & Cl2 & Fcl).
  cbn [set_b_ins b_tas b_tls] in Cl1, Cl2.
  destruct (ffrac_split _ _ (Zle_minus_le_0 _ _ Hif0) Hinsn) as (Hsplit & Hfr0 & Hn0).
  split; [exact Hoka4|]. split; [exact Hokl5|].
  split; [intros Hfr; exact (Fca (fees_rep_frame _ _ Fra3 (fees_rep_frame _ _ Fra2 (Faa Hfr))))|].
  split; [intros Hfr; exact (Fcl (fees_rep_frame _ _ (frame_set_ins _ _) (fees_rep_frame _ _ Frl3 (fees_rep_frame _ _ Frl2 (Fal Hfr)))))|].
  split; [unfold gap, gapb; cbn [set_hb_b hb_b hb_vault]; clear - Hsa Na2 Na3 Na4; lia|].
  split.
  { pose proof (NAV_set_ins (b_ins bl3 + ffrac (q_liq - q_fin)) bl3) as Ni.
    pose proof (f_equal (fun x => x * ONE) Hsplit) as Hs2. cbn beta in Hs2.
    unfold gap, gapb. cbn [set_hb_b set_hb_vault set_hb_insv hb_b hb_vault]. clear - Hsl Nl2 Nl3 Nl5 Ni Hs2. lia. }
  exists (set_nth i2 b2' S), (set_nth i1 b1' la1).
  split; [apply moves_sorted; apply (moves_frame _ ba1 ba2); [exact M2|exact Ta1|exact Ta2|reflexivity|reflexivity|exact (hb_ok_sv _ Hoka2)]|].
  split; [apply (moves_frame _ bl2 bl3); [exact M4|reflexivity|reflexivity|exact Cl1|exact Cl2|exact (hb_ok_sv _ Hokl5)]|].
  split; [apply (moves_frame _ bl1 bl2); [exact M1|exact Tl1|exact Tl2|reflexivity|reflexivity|exact (hb_ok_sv _ Hokl2)]|].
  apply moves_sort. apply (moves_frame _ ba2 ba3); [exact M3|reflexivity|reflexivity|exact Ca1|exact Ca2|exact (hb_ok_sv _ Hoka4)].
Qed.
