(* AuthLemmas.v — C08 over the GENERATED accounts table: the boolean checkers of Spec.v evaluate to true on
   the table produced from the source (vm_compute; the table is finite, so this is a proof), and the
   soundness lemmas of AnchorSemLemmas.v lift each of them to a statement over all worlds, bindings and
   signer sets. *)
Require Import Base Constants AnchorTypes AnchorSem AccountsTable Spec AnchorSemLemmas.
Local Open Scope string_scope.
Local Open Scope Z_scope.

(* the generated flag masks are the ones the signer-rule model uses *)
Lemma flag_masks_tie : ACCOUNT_IN_RECEIVERSHIP = FL_RECEIVERSHIP /\ ACCOUNT_FROZEN = FL_FROZEN.
Proof. split; reflexivity. Qed.

(* the checkers of Spec.v on the table: each proof is one evaluation of one checker over all entries
   (check_all_classes, check_receivership_family, check_group_binding, check_vaults, check_fee_states and
   check_liq_records, entry by entry) *)
Lemma class_checked e : In e accounts_table -> check_class e = true.
Proof. revert e. apply forallb_forall. vm_compute. reflexivity. Qed.

Lemma classification_names_exist name c :
  In (name, c) classification -> exists e, In e accounts_table /\ e_ix e = name.
Proof.
  intros H. apply (find_entry_all accounts_table (map fst classification)).
  - vm_compute. reflexivity.
  - exact (in_map fst _ _ H).
Qed.

Lemma receivership_checked e :
  In e accounts_table -> negb (entry_allows_receivership e) || smem (e_ix e) withdraw_repay_family = true.
Proof. revert e. apply forallb_forall. vm_compute. reflexivity. Qed.

Lemma group_binding_checked e : In e accounts_table -> check_group_binding_entry e = true.
Proof. revert e. apply forallb_forall. vm_compute. reflexivity. Qed.

Lemma vaults_checked e f : In e accounts_table -> In f (e_fields e) -> check_vault_field e f = true.
Proof. revert e f. apply forallb_fields. vm_compute. reflexivity. Qed.

Lemma fee_states_checked e f : In e accounts_table -> In f (e_fields e) -> check_fee_state_field f = true.
Proof. revert e f. apply (forallb_fields (fun _ => check_fee_state_field)). vm_compute. reflexivity. Qed.

Lemma liq_records_checked e : In e accounts_table -> check_liq_record_entry e = true.
Proof. revert e. apply forallb_forall. vm_compute. reflexivity. Qed.

Section T.
Context (pda : key -> list seed_val -> key).
Context (opq : string -> world -> binding -> bool).
Notation accepts := (accepts pda opq).
Notation accepted := (accepted pda opq).

Theorem class_sound e c :
  In e accounts_table -> classify (e_ix e) = Some c ->
  forall w b sg, accepts e w b sg = true -> class_rule pda w b sg c.
Proof. intros He C w b sg Ha. exact (check_class_sound Ha c (class_checked e He) C). Qed.

(* roles checked in the handler body: the guards are modelled by hand in Spec.handler_guard *)
Lemma accepted_inv e w b sg :
  accepted e w b sg = true ->
  accepts e w b sg = true /\ is_ok (handler_bank_gate (e_ix e) w b) = true /\ handler_signer_guard (e_ix e) w b = Ok tt.
Proof.
  intros [Ha Hg]%Bool.andb_true_iff. split; [exact Ha|]. unfold handler_guard in Hg.
  destruct (handler_bank_gate (e_ix e) w b) as [[]|]; [|discriminate]. cbn [bind] in Hg.
  destruct (handler_signer_guard (e_ix e) w b) as [[]|]; [auto|discriminate].
Qed.

Lemma one_of_two_roles ks o1 o2 er :
  check (opt_key_eqb (Some ks) o1 || opt_key_eqb (Some ks) o2) er = Ok tt -> o1 = Some ks \/ o2 = Some ks.
Proof.
  destruct (opt_key_eqb (Some ks) o1 || opt_key_eqb (Some ks) o2) eqn:E; [intros _|discriminate].
  apply Bool.orb_true_iff in E as [E|E]; [left|right];
    destruct (opt_key_eqb_true _ _ E) as [x [[= <-] E']]; exact E'.
Qed.

Lemma bankruptcy_roles e :
  In e accounts_table -> e_ix e = "lending_pool_handle_bankruptcy" ->
  forall w b sg, accepted e w b sg = true ->
  exists ks kg kb ka, bkey b "signer" = Some ks /\ bkey b "group" = Some kg /\ bkey b "bank" = Some kb /\
    bkey b "marginfi_account" = Some ka /\ In ks sg /\
    typed w kg "MarginfiGroup" /\ typed w kb "Bank" /\ typed w ka "MarginfiAccount" /\
    key_field (acct_of w kb) "group" = Some kg /\ key_field (acct_of w ka) "group" = Some kg /\
    (bank_get_flag (num_field (acct_of w kb) "flags") PERMISSIONLESS_BAD_DEBT_SETTLEMENT_FLAG = true \/
     key_field (acct_of w kg) (role_field RRisk) = Some ks \/ key_field (acct_of w kg) (role_field RAdmin) = Some ks).
Proof.
  intros He Hn w b sg (Ha & _ & G)%accepted_inv.
  assert (C : classify (e_ix e) = Some (KBankruptcy "signer" "group" "bank" "marginfi_account"))
    by (rewrite Hn; reflexivity).
  destruct (class_sound e _ He C w b sg Ha)
    as (ks & kg & kb & ka & Hks & Hkg & Hkb & Hka & Hin & Tg & Tb & Ta & Gb & Ga).
  clear He.   (* left in the context, it makes `trivial` unfold the whole table at every goal *)
  exists ks, kg, kb, ka. repeat simple apply conj; trivial.
  rewrite Hn in G. unfold handler_signer_guard in G. cbn [seqb String.eqb Ascii.eqb Bool.eqb] in G.
  rewrite (bound_acct_eq w b _ kb Hkb), (bound_acct_eq w b _ kg Hkg), Hks in G. revert G.
  destruct (bank_get_flag _ _); [left; reflexivity|]. intros G. right. exact (one_of_two_roles _ _ _ _ G).
Qed.

Lemma group_field_of_some e g : group_field_of e = Some g ->
  exists fg, In fg (e_fields e) /\ f_name fg = g /\ wrap_is_loader "MarginfiGroup" fg = true.
Proof.
  unfold group_field_of. destruct (find _ (e_fields e)) as [fg|] eqn:E; [|discriminate].
  intros [= <-]. apply find_some in E. destruct E. eauto.
Qed.

(* C19: who can trigger / redirect an emissions payout *)
Lemma emission_withdraw_signer e :
  In e accounts_table -> e_ix e = "lending_account_withdraw_emissions" ->
  forall w b sg, accepts e w b sg = true -> user_rule w b sg false "marginfi_account" "authority" "group".
Proof. intros He Hn. apply (class_sound e (U false) He). rewrite Hn. reflexivity. Qed.

Lemma emission_destination_owner e :
  In e accounts_table -> e_ix e = "marginfi_account_update_emissions_destination_account" ->
  forall w b sg, accepts e w b sg = true -> owner_rule w b sg "marginfi_account" "authority".
Proof. intros He Hn. apply (class_sound e (KOwner "marginfi_account" "authority") He). rewrite Hn. reflexivity. Qed.

End T.
