(* PrivilegeLemmas.v — C12: frame conditions of the delegated-administrator instructions, the freeze,
   bit-mask algebra of the flag word (over all integers, hence all 64-bit words). *)
Require Import Base Constants ConfigGen Fixed Curve Config Emode ConfigPaths Privilege FixedLemmas ConfigLemmas.
From Coq Require Import ZifyBool.
Local Open Scope Z_scope.

Lemma ldiff_of_submask f m : Z.land f m = f -> Z.ldiff f m = 0.
Proof.
  intros H. apply Z.bits_inj'. intros n _. rewrite <- H, Z.ldiff_spec, Z.land_spec, Z.bits_0.
  destruct (Z.testbit f n), (Z.testbit m n); reflexivity.
Qed.

Lemma land_ldiff_self f a : Z.land (Z.ldiff f a) a = 0.
Proof. apply Z.land_ldiff. Qed.

Lemma word_split f g m : Z.land f m = Z.land g m -> Z.ldiff f m = Z.ldiff g m -> f = g.
Proof. intros H1 H2. rewrite <- (Z.lor_ldiff_and f m), <- (Z.lor_ldiff_and g m), H1, H2. reflexivity. Qed.

Lemma land_of_ldiff f f' m a :
  Z.ldiff f' m = Z.ldiff f m -> Z.land m a = 0 -> Z.land f a = a -> Z.land f' a = a.
Proof.
  intros H Hm Ha. apply Z.bits_inj'. intros n _.
  apply (f_equal (fun x => Z.testbit x n)) in H, Hm, Ha.
  rewrite ?Z.ldiff_spec, ?Z.land_spec, ?Z.bits_0 in *.
  destruct (Z.testbit f n), (Z.testbit f' n), (Z.testbit m n), (Z.testbit a n); cbn in *; congruence.
Qed.

Lemma flag_set_iff f a : flag_set f a = true <-> Z.land f a = a.
Proof. apply Z.eqb_eq. Qed.

Lemma flag_set_false_iff f a : flag_set f a = false <-> Z.land f a <> a.
Proof. apply Z.eqb_neq. Qed.

Lemma pb_frozen_iff b : pb_frozen b = true <-> Z.land (pb_flags b) FREEZE_SETTINGS = FREEZE_SETTINGS.
Proof. apply Z.eqb_eq. Qed.

Lemma role_eqb_eq a b : role_eqb a b = true -> a = b.
Proof. destruct a, b; simpl; intros H; try discriminate; reflexivity. Qed.

Theorem unauthorized_signer_rejected g signer w ix w' :
  pstep g signer w ix = Ok w' -> accepted_signers ix = [] \/ In signer (accepted_signers ix).
Proof.
  intros H. destruct ix; cbn [accepted_signers].
  12: left; reflexivity.                          (* PPropagate is permissionless *)
  9: apply bind_unit in H as [_ H].               (* PUpdateEmissions reads an account first *)
  all: apply bind_unit in H as [Hr%check_true _]; right.
  5: apply orb_true_iff in Hr as [Hr|Hr].         (* PCloneEmode accepts two roles *)
  all: apply role_eqb_eq in Hr as ->; simpl; auto.
Qed.

Lemma sole_signer g signer w ix w' r :
  pstep g signer w ix = Ok w' -> accepted_signers ix = [r] -> signer = r.
Proof. intros [H|H]%unauthorized_signer_rejected E; rewrite E in H; [discriminate | destruct H as [<-|[]]; reflexivity]. Qed.

Definition req_of (ix : pix) : option cfg_req :=
  match ix with
  | PConfigure o => Some (RConfigure o)
  | PInterestOnly io => Some (RInterestOnly io)
  | PLimitsOnly d bo l => Some (RLimitsOnly d bo l)
  | PEmode now tag es => Some (REmode now tag es)
  | PCloneEmode src => Some (RCloneFrom src)
  | PPropagate s oc => Some (RPropagate s oc)
  | _ => None
  end.

Lemma pstep_req g signer w ix w' :
  pstep g signer w ix = Ok w' ->
  match req_of ix with
  | Some r => exists c, apply_req g (pb_c (px_bank w)) r = Ok c /\ w' = set_bank w (with_c (px_bank w) c)
  | None => True
  end.
Proof.
  intros H. destruct ix; try exact I; cbn [req_of].
  1-5: apply bind_unit in H as [_ H].
  all: apply bind_ok in H as (c & Hc & <-%Ok_inj); eauto.
Qed.

Lemma outside_set_bank w b : outside (set_bank w b) = outside w.
Proof. reflexivity. Qed.

Definition is_emode_ix (ix : pix) : bool :=
  match ix with PEmode _ _ _ | PCloneEmode _ => true | _ => false end.

Theorem metadata_admin_frame g signer w t d w' :
  pstep g signer w (PWriteMetadata t d) = Ok w' ->
  signer = RMetadataAdmin /\ px_bank w' = px_bank w /\ outside_metadata w' = outside_metadata w.
Proof.
  intros H. split; [exact (sole_signer _ _ _ _ _ _ H eq_refl)|].
  apply bind_unit in H as [_ H]. apply bind_ok in H as (m & _ & <-%Ok_inj). split; reflexivity.
Qed.

Theorem risk_admin_frame g signer w w' :
  pstep g signer w PForceTokenlessComplete = Ok w' ->
  signer = RRiskAdmin /\ erase_risk (px_bank w') = erase_risk (px_bank w) /\ outside w' = outside w /\
  (flag_set (pb_flags (px_bank w)) TOKENLESS_REPAYMENTS_ALLOWED = false -> px_bank w' = px_bank w).
Proof.
  intros H. split; [exact (sole_signer _ _ _ _ _ _ H eq_refl)|].
  apply bind_unit in H as [_ H]. apply bind_ok in H as (b & Hb & <-%Ok_inj). unfold ix_force_tokenless_complete in Hb.
  destruct (flag_set _ _).
  - apply bind_ok in Hb as (f & Hf & <-%Ok_inj).
    apply (update_flag_within _ _ _ TOKENLESS_REPAYMENTS_COMPLETE) in Hf; [|reflexivity].
    split; [|split; [reflexivity | discriminate]].
    unfold erase_risk, erase_flag_bits, with_flags, pb_flags in *. cbn [px_bank set_bank pb_c with_c cb_flags]. rewrite Hf. reflexivity.
  - apply Ok_inj in Hb as <-. destruct w. auto.
Qed.

Definition with_emissions (b : pbank) (flags rate : Z) (remaining : fx) (mint : Z) : pbank :=
  mkPB (mkCBank (cb_cfg (pb_c b)) flags (cb_emode (pb_c b))) (pb_osetup b) (pb_fixed_price b) rate remaining mint (pb_rest b).

Lemma erase_with_emissions b f r rm mt :
  Z.ldiff f EMISSION_FLAGS = Z.ldiff (pb_flags b) EMISSION_FLAGS -> erase_emissions (with_emissions b f r rm mt) = erase_emissions b.
Proof.
  unfold erase_emissions, erase_emissions_fields, erase_flag_bits, with_flags, with_emissions, with_c, pb_flags.
  cbn [pb_c cb_flags cb_cfg cb_emode pb_osetup pb_fixed_price pb_rest]. intros ->. reflexivity.
Qed.

Lemma override_emissions_inv flags x f :
  override_emissions_flag flags x = Ok f ->
  Z.land x EMISSION_FLAGS = x /\ Z.ldiff f EMISSION_FLAGS = Z.ldiff flags EMISSION_FLAGS.
Proof.
  unfold override_emissions_flag. destruct (Z.eqb_spec (Z.land x EMISSION_FLAGS) x) as [E|]; [|discriminate].
  intros <-%Ok_inj. split; [exact E|]. rewrite (ldiff_lor_within _ _ _ E). apply ldiff_ldiff_within. reflexivity.
Qed.

Lemma em_transfer_inv w a w' :
  em_transfer w a = Ok w' -> px_bank w' = px_bank w /\ outside_emissions w' = outside_emissions w.
Proof. unfold em_transfer. intros [_ <-%Ok_inj]%bind_unit. split; reflexivity. Qed.

Definition is_emissions_ix (ix : pix) : bool :=
  match ix with PSetupEmissions _ _ _ _ | PUpdateEmissions _ _ _ _ _ => true | _ => false end.

Definition em_flags_arg (ix : pix) : option Z :=
  match ix with PSetupEmissions _ x _ _ => Some x | PUpdateEmissions _ _ ox _ _ => ox | _ => None end.

Lemma emissions_ix_inv g signer w ix w' :
  is_emissions_ix ix = true -> pstep g signer w ix = Ok w' ->
  (forall x, em_flags_arg ix = Some x -> Z.land x EMISSION_FLAGS = x) /\
  outside_emissions w' = outside_emissions w /\
  exists f r rm mt, px_bank w' = with_emissions (px_bank w) f r rm mt /\
                    Z.ldiff f EMISSION_FLAGS = Z.ldiff (pb_flags (px_bank w)) EMISSION_FLAGS.
Proof.
  destruct ix; try discriminate; intros _ H; cbn [em_flags_arg].
  - apply bind_unit in H as [_ H]. apply bind_unit in H as [_ H].
    apply bind_ok in H as (f & [Hx Hd]%override_emissions_inv & [-> ->]%em_transfer_inv).
    split; [intros x [= <-]; exact Hx|]. split; [reflexivity|].
    exists f, rate, (of_int total), mint. split; [reflexivity | exact Hd].
  - apply bind_unit in H as [_ H]. apply bind_unit in H as [_ H].
    apply bind_unit in H as [_ H]. apply bind_unit in H as [_ H].
    apply bind_ok in H as (f & Hf & H).
    assert (Hf' : (forall x, oflags = Some x -> Z.land x EMISSION_FLAGS = x) /\
                  Z.ldiff f EMISSION_FLAGS = Z.ldiff (pb_flags (px_bank w)) EMISSION_FLAGS).
    { destruct oflags as [x|].
      - apply bind_unit in Hf as [_ [Hx Hd]%override_emissions_inv]. split; [intros y [= <-]; exact Hx | exact Hd].
      - apply Ok_inj in Hf as <-. split; [discriminate | reflexivity]. }
    destruct Hf' as [Hx Hd]. split; [exact Hx|]. destruct oadd as [a|].
    + apply bind_ok in H as (rem & _ & [-> ->]%em_transfer_inv). split; [reflexivity|].
      eexists f, _, rem, _. split; [reflexivity | exact Hd].
    + apply Ok_inj in H as <-. split; [reflexivity|]. eexists f, _, _, _. split; [reflexivity | exact Hd].
Qed.

Lemma emissions_update_illegal_flag g w mint x orate oadd :
  pb_em_mint (px_bank w) <> 0 -> pb_em_mint (px_bank w) = mint -> Z.land x EMISSION_FLAGS <> x ->
  pstep g REmissionsAdmin w (PUpdateEmissions (Ok tt) mint (Some x) orate oadd) = Err (E E_IllegalFlag).
Proof.
  intros Hm He Hx. unfold pstep, require_role. cbn [bind role_eqb check]. unfold ix_update_emissions.
  replace (negb (pb_em_mint (px_bank w) =? 0)) with true by lia.
  replace (pb_em_mint (px_bank w) =? mint) with true by lia. cbn [check bind].
  replace (Z.land x EMISSION_FLAGS =? x) with false by lia. reflexivity.
Qed.

Definition wit_cfg : bank_cfg := mkBC 0 0 ONE ONE 0 0 dummy_ir 0 OP_OPERATIONAL 0 0 0 60 0 0.
Definition wit_bank (flags em_mint : Z) : pbank := mkPB (mkCBank wit_cfg flags es_zeroed) 3 0 0 0 em_mint 0.
Definition wit_world (flags em_mint : Z) (vault : option Z) : pworld :=
  mkPX (wit_bank flags em_mint) (mkPM [] 0 [] 0) 1000 vault 0 0 0 0.
Definition wit_caps : caps := mkCaps 0 0.

Lemma frozen_refuses_oracle g signer w ix w' :
  pb_frozen (px_bank w) = true -> pstep g signer w ix = Ok w' ->
  match ix with POracle _ _ _ | PFixedPrice _ => False | _ => True end.
Proof.
  intros Hfr H. destruct ix; try exact I; apply bind_unit in H as [_ H];
    unfold lift_b, ix_configure_oracle, ix_set_fixed_price in H; rewrite Hfr in H; discriminate.
Qed.

(* a configuration request on a frozen bank leaves the flag word alone, the emissions and risk instructions
   write other bits, the two oracle instructions fail *)
Lemma pstep_keeps_freeze g signer w ix w' :
  pb_frozen (px_bank w) = true -> pstep g signer w ix = Ok w' -> pb_frozen (px_bank w') = true.
Proof.
  intros Hfr H. destruct (req_of ix) as [r|] eqn:Er.
  - apply pstep_req in H. rewrite Er in H. destruct H as (c & [_ [Hf|[Hf _]]]%req_frame & ->).
    + unfold pb_frozen, cb_get_flag in *. cbn [px_bank set_bank pb_c with_c]. rewrite Hf. exact Hfr.
    + unfold pb_frozen in Hfr. congruence.
  - apply pb_frozen_iff. apply pb_frozen_iff in Hfr as Hfl. destruct (is_emissions_ix ix) eqn:Eix.
    { apply (emissions_ix_inv _ _ _ _ _ Eix) in H as (_ & _ & f & r & rm & mt & -> & Hd).
      apply (land_of_ldiff _ _ _ _ Hd); [reflexivity | exact Hfl]. }
    pose proof (frozen_refuses_oracle _ _ _ _ _ Hfr H) as Ho. destruct ix; try discriminate; try contradiction.
    + apply metadata_admin_frame in H as (_ & -> & _). exact Hfl.
    + apply risk_admin_frame in H as (_ & He%(f_equal pb_flags) & _).
      apply (land_of_ldiff (pb_flags (px_bank w)) _ TOKENLESS_REPAYMENTS_COMPLETE); [exact He | reflexivity | exact Hfl].
Qed.

(* reported, not claimed: staked propagation rewrites weights of a frozen bank *)
Lemma propagate_ignores_freeze :
  exists g w s w', pb_frozen (px_bank w) = true /\ pstep g RStranger w (PPropagate s (Ok tt)) = Ok w' /\
                   bc_awi (cb_cfg (pb_c (px_bank w'))) <> bc_awi (cb_cfg (pb_c (px_bank w))).
Proof.
  exists wit_caps,
    (mkPX (mkPB (mkCBank (mkBC 0 0 ONE ONE 0 0 (mkIR 0 0 0 0 0 0 0 0 U32_MAXZ [] INTEREST_CURVE_SEVEN_POINT) 0 OP_OPERATIONAL 0 ASSET_TAG_STAKED 0 60 0 1)
                         24 es_zeroed) 5 0 0 0 0 0) (mkPM [] 0 [] 0) 0 None 0 0 0 0),
    (mkSS 1 (ONE / 2) (ONE / 2) 5 6 60 0).
  eexists. split; [vm_compute; reflexivity|]. split; [vm_compute; reflexivity|]. vm_compute. discriminate.
Qed.
