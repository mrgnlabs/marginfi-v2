(* HandlerWorld.v — one successful instruction, all instructions in one case analysis (hstep_claims): the gap of every bank
   falls by at most the allowance (C01), every bank cell stays well-formed and the ledger invariant holds again (C02 at
   instruction level, including liquidation's four legs and bankruptcy); then histories by induction.  HOk2 = HOk with the
   ledger invariant in place of its consequence pos_le; it is preserved, which discharges the per-state assumption of the
   history theorem of C01. *)
Require Import Base Constants Fixed Curve Bank BankOps Risk TransferFee Handlers.
Require Import FixedLemmas BankLemmas HandlerLemmas SolvencyLemmas LedgerLemmas HandlerEffects SolvencyHandlers SolvencyWorld.
From Coq Require Import ZifyBool.
Local Open Scope Z_scope.

(* the wrapper-level view of a handler world *)
Definition bw_of (w : hworld) : bworld :=
  mkBW (map hb_b (hw_banks w)) (map ha_la (hw_accts w)) (hw_now w) (hw_pf w).

Definition HLedger (w : hworld) : Prop := Ledger (bw_of w).

Definition HOk2 (w : hworld) : Prop :=
  pf_ok (hw_pf w) /\ HLedger w /\ (forall b hb, nth_bank w b = Ok hb -> hb_ok hb /\ fees_rep (hb_b hb)).

Lemma HOk2_HOk w : HOk2 w -> HOk w.
Proof.
  intros (Hpf & L & Hb). split; [exact Hpf|]. split; [exact Hb|].
  intros a ac Hac.
  assert (Hin : In (ha_la ac) (bw_accts (bw_of w))).
  { cbn [bw_of bw_accts]. apply in_map. apply nth_res_ok in Hac. eapply nth_error_In; eauto. }
  pose proof (lg_wf _ L) as Wf. rewrite Forall_forall in Wf. pose proof (Wf _ Hin) as Wla.
  split; [exact Wla|]. intros b hb Hhb bl Hbl Hact Hbank.
  assert (Hbo : bank_of (bw_of w) b = Some (hb_b hb)) by exact (nth_res_ok _ _ _ (nth_res_map hb_b _ _ _ Hhb)).
  destruct (lg_tot _ L b _ Hbo) as [Sa Sl].
  destruct (lsum_ge_member (bank_pk b) _ _ Wla Hbl) as [M1 M2].
  destruct (wsum_ge_member (bank_pk b) _ _ (lg_wf _ L) Hin) as [N1 N2].
  rewrite <- Hbank in M1, M2. destruct (ca_self bl Hact) as [C1 C2]. rewrite C1 in M1. rewrite C2 in M2. rewrite Hbank in M1, M2. lia.
Qed.

Lemma HOk2_hb_ok w b hb : HOk2 w -> nth_bank w b = Ok hb -> hb_ok hb.
Proof. intros (_ & _ & Hbk) Hb. exact (proj1 (Hbk _ _ Hb)). Qed.

Lemma acct_wf_of w a ac : HOk2 w -> nth_acct w a = Ok ac -> Forall wf_bal (ha_la ac).
Proof. intros H Hac. destruct (HOk2_HOk _ H) as (_ & _ & Ha). destruct (Ha _ _ Hac) as (W & _). exact W. Qed.

(* ---------------------------------------------------------------- the ledger after a handler *)
Lemma eff1_moves_ledger w w' a b hb hb' ac ac' :
  HLedger w -> eff1 w w' a b hb hb' ac ac' -> moves_with (bank_pk b) (hb_b hb) (hb_b hb') (ha_la ac) (ha_la ac') -> HLedger w'.
Proof.
  intros L (E1 & E2 & E3 & E4 & E5 & E6 & _) M. unfold HLedger, bw_of. rewrite E3, E4, E5, E6, !map_set_nth.
  exact (moves_ledger (bw_of w) a b _ _ _ _ L (nth_res_map hb_b _ _ _ E1) (nth_res_map ha_la _ _ _ E2) M).
Qed.

(* the slot account a holds for bank b replaced, and account a sorted *)
Lemma eff1_ledger w w' a b hb hb' ac ac' i bl blY da dl :
  HLedger w -> eff1 w w' a b hb hb' ac ac' ->
  wrapper_find (bank_pk b) (ha_la ac) = Ok i -> nth_res i (ha_la ac) = Ok bl ->
  slot_ok (bank_pk b) (hb_b hb) bl (hb_b hb') blY da dl ->
  ha_la ac' = sort_balances (set_nth i blY (ha_la ac)) ->
  HLedger w'.
Proof.
  intros L E Hi Hbl Hso Hla. apply (eff1_moves_ledger _ _ _ _ _ _ _ _ L E). rewrite Hla.
  pose proof (Forall_nth_error _ _ _ _ (lg_wf _ L) (nth_res_ok _ _ _ (nth_res_map ha_la _ _ _ (proj1 (proj2 E))))) as W.
  apply moves_sort. exact (slot_moves _ _ _ _ _ _ _ _ _ _ W (located_find _ _ _ Hi) Hbl Hso).
Qed.

(* a bank-only change that keeps the totals *)
Lemma effb_ledger w w' b hb hb' :
  HLedger w -> effb w w' b hb hb' -> wf_sv (hb_b hb') ->
  b_tas (hb_b hb') = b_tas (hb_b hb) -> b_tls (hb_b hb') = b_tls (hb_b hb) -> HLedger w'.
Proof.
  intros L (E1 & E3 & E4 & E5 & E6 & _) Hsv T1 T2.
  destruct (put_bank_ledger (bw_of w) b _ _ L (nth_res_map hb_b _ _ _ E1) Hsv T1 T2) as (L1 & _).
  unfold HLedger, bw_of. rewrite E3, E4, E5, E6, map_set_nth. exact L1.
Qed.

(* ---------------------------------------------------------------- the whole world after a handler *)
(* a property of every cell survives writing a cell that has it *)
Lemma cells_ok_set {A} (P : A -> Prop) (l : list A) b x :
  (forall k y, nth_res k l = Ok y -> P y) -> P x -> forall k y, nth_res k (set_nth b x l) = Ok y -> P y.
Proof.
  intros Hl Hx k y Hk. apply nth_res_ok, nth_error_In, In_set_nth in Hk as [->|Hin]; [exact Hx|].
  apply In_nth_error in Hin as (k0 & E). apply (Hl k0). unfold nth_res. rewrite E. reflexivity.
Qed.

(* ---------------------------------------------------------------- one successful instruction *)
(* instructions carry u64 amounts *)
Definition hop_ok2 (o : hop) : Prop := hop_ok o.

(* everything one successful instruction establishes: the gap claim for every bank, and, unless it is a bankruptcy
   that kills its bank, well-formed bank cells and the ledger invariant again *)
Definition step_claims (w : hworld) (o : hop) (w' : hworld) : Prop :=
  hw_pf w' = hw_pf w /\
  (forall b hb, nth_bank w b = Ok hb ->
     exists hb', nth_bank w' b = Ok hb' /\ (gap hb - step_slack w o b hb <= gap hb' \/ sanctioned w o b hb hb')) /\
  ( (forall b hb', nth_bank w' b = Ok hb' -> hb_ok hb' /\ fees_rep (hb_b hb')) /\ (HLedger w -> HLedger w')
    \/ exists a b hb', o = HBankruptcy a b /\ nth_bank w' b = Ok hb' /\ b_op_state (hb_b hb') = OP_KILLED ).

Lemma HOk_eff1 w w' a b hb hb' ac ac' : HOk w -> eff1 w w' a b hb hb' ac ac' ->
  hb_ok hb /\ fees_rep (hb_b hb) /\ Forall wf_bal (ha_la ac) /\ pos_le (hb_b hb) (bank_pk b) (ha_la ac).
Proof. intros H (Eb & Ea & _). exact (HOk_cells _ _ _ _ _ H Eb Ea). Qed.

(* an instruction on one bank cell and one account, with allowance s *)
Lemma eff1_claims w o w' a b0 hb0 hb0' ac ac' (s : hbank -> Z) :
  HOk w -> eff1 w w' a b0 hb0 hb0' ac ac' ->
  (forall b hb, step_slack w o b hb = if (b0 =? b)%nat then s hb else 0) ->
  hb_ok hb0' -> fees_rep (hb_b hb0') -> (gap hb0 - s hb0 <= gap hb0' \/ sanctioned w o b0 hb0 hb0') ->
  moves_with (bank_pk b0) (hb_b hb0) (hb_b hb0') (ha_la ac) (ha_la ac') -> step_claims w o w'.
Proof.
  intros (_ & Hb & _) E Hs O F G M. pose proof E as (E1 & _ & E3 & _ & _ & E6 & _).
  split; [exact E6|]. split; [exact (cell_gap _ _ _ _ _ _ s E1 E3 Hs G)|]. left.
  split; [unfold nth_bank; rewrite E3; apply cells_ok_set; [exact Hb|split; assumption]|].
  intros L. exact (eff1_moves_ledger _ _ _ _ _ _ _ _ L E M).
Qed.
(* an instruction on one bank cell that keeps the totals *)
Lemma effb_claims w o w' b0 hb0 hb0' (s : hbank -> Z) :
  HOk w -> effb w w' b0 hb0 hb0' ->
  (forall b hb, step_slack w o b hb = if (b0 =? b)%nat then s hb else 0) ->
  hb_ok hb0' -> fees_rep (hb_b hb0') -> gap hb0 - s hb0 <= gap hb0' ->
  b_tas (hb_b hb0') = b_tas (hb_b hb0) -> b_tls (hb_b hb0') = b_tls (hb_b hb0) -> step_claims w o w'.
Proof.
  intros (_ & Hb & _) E Hs O F G T1 T2. pose proof E as (E1 & E3 & _ & _ & E6 & _).
  split; [exact E6|]. split; [exact (cell_gap _ _ _ _ _ _ s E1 E3 Hs (or_introl G))|]. left.
  split; [unfold nth_bank; rewrite E3; apply cells_ok_set; [exact Hb|split; assumption]|].
  intros L. exact (effb_ledger _ _ _ _ _ L E (hb_ok_sv _ O) T1 T2).
Qed.

Theorem hstep_claims w o w' : HOk w -> hop_ok o -> hstep w o = Ok w' -> step_claims w o w'.
Proof.
  intros Hok Hop H. pose proof Hok as (Hpf & Hb & _).
  destruct o; cbn [hstep hop_ok] in *.
  - (* clock *) apply Ok_inj in H. subst w'. split; [reflexivity|].
    split; [intros b hb E; exists hb; split; [exact E|left; cbn [step_slack]; lia]|]. left. split; [exact Hb|].
    intros [L1 L2 L3]. constructor; assumption.
  - (* deposit *)
    destruct (h_deposit_effect _ _ _ _ _ _ H) as (hb0 & hb0' & ac & ac' & E & F).
    destruct (HOk_eff1 _ _ _ _ _ _ _ _ Hok E) as (Hok0 & Hfr & Wac & Pac).
    destruct (deposit_step _ _ _ _ _ _ _ _ _ Hop F Hok0 Wac Pac) as (O & Fr & G & M).
    apply (eff1_claims _ _ _ _ _ _ _ _ _ (acc_slack w) Hok E); [reflexivity|exact O|exact (Fr Hfr)|left; exact G|exact M].
  - (* withdraw *)
    destruct (h_withdraw_effect _ _ _ _ _ _ H) as (hb0 & hb0' & ac & ac' & E & F).
    destruct (HOk_eff1 _ _ _ _ _ _ _ _ Hok E) as (Hok0 & Hfr & Wac & Pac).
    destruct (withdraw_core_step _ _ _ _ _ _ _ _ Hop (withdraw_facts_core _ _ _ _ _ _ _ _ _ _ F) Hok0 Wac Pac) as (O & Fr & G & M).
    apply (eff1_claims _ _ _ _ _ _ _ _ _ (fun hb => acc_slack w hb + sv_slack w hb) Hok E); [reflexivity|exact O|exact (Fr Hfr)|left; lia|exact M].
  - (* borrow *)
    destruct (h_borrow_effect _ _ _ _ _ H) as (hb0 & hb0' & ac & ac' & E & F).
    destruct (HOk_eff1 _ _ _ _ _ _ _ _ Hok E) as (Hok0 & Hfr & Wac & Pac).
    destruct (borrow_step _ _ _ _ _ _ _ _ _ Hop F Hok0 Hfr Hpf Wac Pac) as (O & Fr & G & M).
    apply (eff1_claims _ _ _ _ _ _ _ _ _ (fun hb => acc_slack w hb + sv_slack w hb) Hok E); [reflexivity|exact O|exact Fr|left; lia|exact M].
  - (* repay *)
    destruct (h_repay_effect _ _ _ _ _ _ H) as (hb0 & hb0' & ac & ac' & E & F).
    destruct (HOk_eff1 _ _ _ _ _ _ _ _ Hok E) as (Hok0 & Hfr & Wac & Pac).
    destruct (repay_step _ _ _ _ _ _ _ _ _ Hop F Hok0 Wac Pac) as (O & Fr & G & M).
    apply (eff1_claims _ _ _ _ _ _ _ _ _ (fun hb => acc_slack w hb + (if all then ONE else 0)) Hok E); [reflexivity|exact O|exact (Fr Hfr)| |exact M].
    destruct G as [G|G]; [left; lia|right; split; [reflexivity|exact G]].
  - (* close balance *)
    destruct (h_close_balance_effect _ _ _ _ H) as (hb0 & hb0' & ac & ac' & E & F).
    destruct (HOk_eff1 _ _ _ _ _ _ _ _ Hok E) as (Hok0 & Hfr & Wac & Pac).
    destruct (close_step _ _ _ _ _ _ _ F Hok0 Wac Pac) as (O & Fr & G & M).
    apply (eff1_claims _ _ _ _ _ _ _ _ _ (acc_slack w) Hok E); [reflexivity|exact O|exact (Fr Hfr)|left; exact G|exact M].
  - (* accrue *)
    destruct (h_accrue_effect _ _ _ H) as (hb0 & bk1 & bk2 & E & Hacc & Hcache). destruct (Hb _ _ (proj1 E)) as (Hok0 & Hfr).
    destruct (accrue_step _ _ _ _ Hacc Hcache Hok0) as (O & Fr & G & T1 & T2).
    apply (effb_claims _ _ _ _ _ _ (acc_slack w) Hok E); [reflexivity|exact O|exact (Fr Hfr)|exact G|exact T1|exact T2].
  - (* collect fees *)
    destruct (collect_step _ _ _ H) as (hb0 & hb0' & E & Fr & T1 & T2 & G). destruct (Hb _ _ (proj1 E)) as (Hok0 & _).
    destruct (G Hok0) as (O & G').
    apply (effb_claims _ _ _ _ _ _ (fun _ => 0) Hok E); [|exact O|exact Fr|lia|exact T1|exact T2].
    intros b' hb'. cbn [step_slack]. destruct (b =? b')%nat; reflexivity.
  - (* liquidate: two bank cells, two accounts *)
    destruct (liquidate_gen_inv positions _ _ _ _ _ _ _ (fun _ _ _ _ => eq_refl) H)
      as (ha & hl & ee & er & ba1 & bl1 & ps0 & ps1 & h0 & A0 & L0 & h1 & ap & lp & v1 & v2 & q_liq & q_fin & i1 & i2 & i3 & i4 & la1 & la3 &
          b1 & b1' & b2 & b2' & b3 & b3' & b4 & b4' & bl2 & ba2 & ba3 & bl3 & ee3 & er3 & ha' & hl' & f & ins_n & ba4 & bl5 & R).
    pose proof R as [(Ea & El) (_ & Hne & Hd) (Eee & Eer) _ _ _ _ _ _ _ _ _ _ _ _ _ _ _ _ Ew _ _].
    destruct (HOk_cells _ _ _ _ _ Hok Ea Eee) as (Hoka & Hfra & Wee & Pea). destruct (HOk_cells _ _ _ _ _ Hok El Eee) as (Hokl & Hfrl & _ & Pel).
    destruct (HOk_cells _ _ _ _ _ Hok Ea Eer) as (_ & _ & Wer & Pra). destruct (HOk_cells _ _ _ _ _ Hok El Eer) as (_ & _ & _ & Prl).
    destruct (liquidate_step _ _ _ _ _ _ _ _ _ _ _ _ _ _ _ _ _ _ _ _ _ _ _ _ _ _ _ _ _ _ _ _ _ _ _ _ _ _ _ _ _ _ _ _ _ _ _ _ _ _ _ _
                R Hoka Hokl Wee Pea Pel Wer Pra Prl)
      as (Oa & Ol & Fra & Frl & Ga & Gl & laE & laR & M2 & M4 & M1 & M3).
    rewrite Ew. cbn [hw_pf]. split; [reflexivity|]. split; [|left; split].
    + intros b hb Hb0. cbn [step_slack]. unfold nth_bank in *. cbn [hw_banks].
      destruct (Nat.eqb_spec lb b) as [<-|Hlb]; [|destruct (Nat.eqb_spec ab b) as [<-|Hab]].
      * rewrite Hb0 in El. apply Ok_inj in El. subst hl. exists hl'.
        split; [apply (nth_res_set_same _ _ _ hb); rewrite nth_res_set_other by assumption; exact Hb0|]. left. rewrite Bool.orb_true_r. lia.
      * rewrite Hb0 in Ea. apply Ok_inj in Ea. subst ha. exists ha'.
        split; [rewrite nth_res_set_other by assumption; exact (nth_res_set_same _ _ _ _ Hb0)|]. left. cbn [orb]. lia.
      * exists hb. split; [rewrite !nth_res_set_other by assumption; exact Hb0|]. left. cbn [orb]. lia.
    + unfold nth_bank. cbn [hw_banks]. apply cells_ok_set; [apply cells_ok_set; [exact Hb|exact (conj Oa (Fra Hfra))]|exact (conj Ol (Frl Hfrl))].
    + intros L. unfold HLedger, bw_of. cbn [hw_banks hw_accts hw_now hw_pf]. rewrite !map_set_nth.
      exact (moves_ledger2 (bw_of w) liqee liqor ab lb _ _ _ _ _ _ _ _ _ _ _ _ _ _ L ltac:(congruence) Hne
               (nth_res_map hb_b _ _ _ Ea) (nth_res_map hb_b _ _ _ El) (nth_res_map ha_la _ _ _ Eee) (nth_res_map ha_la _ _ _ Eer) M2 M4 M1 M3).
  - (* bankruptcy *)
    destruct (h_bankruptcy_effect _ _ _ _ H) as (hb0 & hb0' & ac & ac' & E & F).
    destruct (HOk_eff1 _ _ _ _ _ _ _ _ Hok E) as (Hok0 & Hfr & Wac & Pac).
    destruct (bankruptcy_step _ _ _ _ _ _ _ F Hok0 Wac Pac) as [(O & Fr & G & M)|G].
    + apply (eff1_claims _ _ _ _ _ _ _ _ _ (acc_slack w) Hok E); [reflexivity|exact O|exact (Fr Hfr)|left; exact G|exact M].
    + destruct E as (E1 & _ & E3 & _ & _ & E6 & _). split; [exact E6|].
      split; [apply (cell_gap _ _ _ _ _ _ (acc_slack w) E1 E3); [reflexivity|right; split; [reflexivity|exact G]]|].
      right. exists a, b, hb0'. split; [reflexivity|]. split; [exact (nth_bank_of_eq _ _ _ _ _ E3 E1)|exact G].
  - (* set price *)
    bind_inv H as hb0 Hb0. apply Ok_inj in H. subst w'. destruct (Hb _ _ Hb0) as (O0 & F0).
    eapply (effb_claims w _ _ b hb0 _ (fun _ => 0) Hok); [unfold effb; repeat split; assumption || reflexivity| |exact O0|exact F0| |reflexivity|reflexivity].
    + intros b' hb'. cbn [step_slack]. destruct (b =? b')%nat; reflexivity.
    + unfold gap, gapb. cbn [hb_b hb_vault]. lia.
Qed.

Theorem hstep_gap w o w' :
  HOk w -> hop_ok o -> hstep w o = Ok w' ->
  forall b hb, nth_bank w b = Ok hb ->
  exists hb', nth_bank w' b = Ok hb' /\
    (gap hb - step_slack w o b hb <= gap hb' \/ sanctioned w o b hb hb').
Proof. intros Hok Hop H. exact (proj1 (proj2 (hstep_claims _ _ _ Hok Hop H))). Qed.

Theorem hstep_HOk2 w o w' :
  HOk2 w -> hop_ok2 o -> hstep w o = Ok w' ->
  HOk2 w' \/ exists a b hb', o = HBankruptcy a b /\ nth_bank w' b = Ok hb' /\ b_op_state (hb_b hb') = OP_KILLED.
Proof.
  intros H2 Hop H. destruct (hstep_claims _ _ _ (HOk2_HOk _ H2) Hop H) as (Ep & _ & [(B & Lg)|K]); [left|right; exact K].
  destruct H2 as (Hpf & L & _). split; [rewrite Ep; exact Hpf|]. split; [exact (Lg L)|exact B].
Qed.

(* the single-cell handlers that other transactions reuse *)
Lemma eff1_HOk2 w w' a b hb hb' ac ac' :
  HOk2 w -> eff1 w w' a b hb hb' ac ac' -> hb_ok hb' -> fees_rep (hb_b hb') ->
  moves_with (bank_pk b) (hb_b hb) (hb_b hb') (ha_la ac) (ha_la ac') -> HOk2 w'.
Proof.
  intros (Hpf & L & Hb) E O F M. pose proof E as (_ & _ & E3 & _ & _ & E6 & _).
  split; [rewrite E6; exact Hpf|]. split; [exact (eff1_moves_ledger _ _ _ _ _ _ _ _ L E M)|].
  unfold nth_bank. rewrite E3. apply cells_ok_set; [exact Hb|split; assumption].
Qed.
Lemma withdraw_core_HOk2 w w' a b amount all hb hb' ac ac' :
  0 <= amount -> HOk2 w -> eff1 w w' a b hb hb' ac ac' -> withdraw_core w b amount all hb hb' ac ac' -> HOk2 w'.
Proof.
  intros Hamt H2 E F. destruct (HOk_eff1 _ _ _ _ _ _ _ _ (HOk2_HOk _ H2) E) as (Hok & Hfr & Wac & Pac).
  destruct (withdraw_core_step _ _ _ _ _ _ _ _ Hamt F Hok Wac Pac) as (O & Fr & _ & M). exact (eff1_HOk2 _ _ _ _ _ _ _ _ H2 E O (Fr Hfr) M).
Qed.
Lemma withdraw_HOk2 w w' a b amount all hb hb' ac ac' :
  0 <= amount -> HOk2 w -> eff1 w w' a b hb hb' ac ac' -> withdraw_facts w w' a b amount all hb hb' ac ac' -> HOk2 w'.
Proof. intros Hamt H2 E F. eapply withdraw_core_HOk2; [exact Hamt | exact H2 | exact E | eapply withdraw_facts_core; exact F]. Qed.
Lemma repay_HOk2 w w' a b amount all hb hb' ac ac' :
  0 <= amount -> HOk2 w -> eff1 w w' a b hb hb' ac ac' -> repay_facts w a b amount all hb hb' ac ac' -> HOk2 w'.
Proof.
  intros Hamt H2 E F. destruct (HOk_eff1 _ _ _ _ _ _ _ _ (HOk2_HOk _ H2) E) as (Hok & Hfr & Wac & Pac).
  destruct (repay_step _ _ _ _ _ _ _ _ _ Hamt F Hok Wac Pac) as (O & Fr & _ & M). exact (eff1_HOk2 _ _ _ _ _ _ _ _ H2 E O (Fr Hfr) M).
Qed.

(* ---------------------------------------------------------------- histories *)
Definition no_kill (w : hworld) : Prop := forall b hb, nth_bank w b = Ok hb -> b_op_state (hb_b hb) <> OP_KILLED.

(* no instruction of the history wipes a bank out (the property's second sanctioned exception) *)
Fixpoint run_no_wipeout (w : hworld) (ops : list hop) : Prop :=
  match ops with
  | [] => True
  | o :: r => (forall w', hstep w o = Ok w' -> no_kill w') /\ run_no_wipeout (hstep_total w o) r
  end.

Theorem hrun_gap ops : forall w b hb, run_ok w ops -> nth_bank w b = Ok hb ->
  exists hb', nth_bank (hrun w ops) b = Ok hb' /\ (gap hb - run_slack w ops b <= gap hb' \/ run_exception w ops b).
Proof.
  induction ops as [|o r IH]; intros w b hb Hrun Hb; cbn [hrun fold_left run_slack run_exception].
  - exists hb. split; [exact Hb|left; lia].
  - destruct Hrun as (Hok & Hop & Hrest). unfold hstep_total in *.
    destruct (hstep w o) as [w'|e] eqn:E.
    + destruct (hstep_gap _ _ _ Hok Hop E _ _ Hb) as (hb1 & Hb1 & G1).
      destruct (IH _ _ _ Hrest Hb1) as (hb2 & Hb2 & G2).
      exists hb2. split; [exact Hb2|]. rewrite Hb.
      destruct G1 as [G1|G1]; [|right; left; exists w', hb, hb1; repeat split; assumption].
      destruct G2 as [G2|G2]; [left; lia|right; right; exact G2].
    + destruct (IH _ _ _ Hrest Hb) as (hb2 & Hb2 & G2).
      exists hb2. split; [exact Hb2|]. destruct G2 as [G2|G2]; [left; lia|right; right; exact G2].
Qed.

Theorem hrun_keeps_HOk2 ops : forall w, HOk2 w -> Forall hop_ok2 ops -> run_no_wipeout w ops ->
  HOk2 (hrun w ops) /\ run_ok w ops.
Proof.
  induction ops as [|o r IH]; intros w H2 Hops Hnw; cbn [hrun fold_left run_ok].
  - split; [exact H2|]. split; [apply HOk2_HOk; exact H2|exact I].
  - inversion Hops as [|? ? Ho Hr]; subst. destruct Hnw as (Hnk & Hnw).
    assert (Hnext : HOk2 (hstep_total w o)).
    { unfold hstep_total. destruct (hstep w o) as [w'|e] eqn:E; [|exact H2].
      destruct (hstep_HOk2 _ _ _ H2 Ho E) as [G|(a & b & hb' & _ & Hb' & Hk)]; [exact G|].
      exfalso. exact (Hnk _ eq_refl _ _ Hb' Hk). }
    destruct (IH _ Hnext Hr Hnw) as (G1 & G2).
    split; [exact G1|]. split; [apply HOk2_HOk; exact H2|]. split; [exact Ho|exact G2].
Qed.
